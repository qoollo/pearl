(* C11: every modelled I/O fault (Fault.v) is contained: the background faults, then one failed file operation
   inside a client call. *)
Require Import Pearl.Base.Prelude Pearl.Storage.Model Pearl.Storage.Spec Pearl.Storage.Inv Pearl.Storage.InvProofs
               Pearl.Storage.NoHarmProofs Pearl.Storage.WorkerProofs Pearl.Storage.Theorems Pearl.Storage.Cancel
               Pearl.Storage.CancelProofs Pearl.Storage.Fault.

(* `append_fails`, `dump_fails` and `close_active_fsync_fails` are the identity (Fault.v says why) *)
Lemma append_failure_contained K cfg ops k :
  abs (append_fails (reach K cfg ops)) = abs (reach K cfg ops) /\
  get_latest_entry (append_fails (reach K cfg ops)) k None = get_latest_entry (reach K cfg ops) k None.
Proof. split; reflexivity. Qed.

Lemma dump_fails_recs b : b_recs (dump_fails b) = b_recs b.
Proof. reflexivity. Qed.

Lemma dump_fails_on_id s id : dump_fails_on s id = s.
Proof.
  unfold dump_fails_on. rewrite (map_ext _ (fun o => o)).
  - rewrite map_id. destruct s; reflexivity.
  - intros [b|]; [|reflexivity]. unfold dump_fails. destruct (b_id b =? id); reflexivity.
Qed.

Lemma dump_failure_contained s id k :
  get_latest_entry (dump_fails_on s id) k None = get_latest_entry s k None /\ abs (dump_fails_on s id) = abs s.
Proof. rewrite dump_fails_on_id. split; reflexivity. Qed.

Lemma dump_failure_reads s id k meta :
  get_latest_entry (dump_fails_on s id) k meta = get_latest_entry s k meta /\
  read_all (dump_fails_on s id) k = read_all s k /\ read_all_dm (dump_fails_on s id) k = read_all_dm s k.
Proof. rewrite dump_fails_on_id. repeat split; reflexivity. Qed.

Lemma close_fsync_failure_contained s : close_active_fsync_fails s = s.
Proof. reflexivity. Qed.

Lemma close_fsync_failure_reads s k meta :
  get_latest_entry (close_active_fsync_fails s) k meta = get_latest_entry s k meta /\
  abs (close_active_fsync_fails s) = abs s.
Proof. split; reflexivity. Qed.

Lemma rotation_failure_abs s : abs (rotation_create_fails s) = abs s.
Proof. reflexivity. Qed.

Lemma rotation_failure_reads s k meta :
  get_latest_entry (rotation_create_fails s) k meta = get_latest_entry s k meta /\
  read_all (rotation_create_fails s) k = read_all s k /\ read_all_dm (rotation_create_fails s) k = read_all_dm s k.
Proof. repeat split; reflexivity. Qed.

Lemma rotation_failure_alive s : s_alive (rotation_create_fails s) = s_alive s.
Proof. reflexivity. Qed.

(* `rotation_create_fails s` is the record `burn_id s` (Cancel.v) written out: `apply` converts *)
Lemma rotation_failure_IdsOk s : IdsOk s -> IdsOk (rotation_create_fails s).
Proof. apply (shape_ids quiet s (burn_id s)); [apply q_id|apply shape_burn_id, quiet_refl]. Qed.

Lemma rotation_failure_Inv K s : Inv K s -> Inv K (rotation_create_fails s).
Proof.
  intros (Hb & Hi & Hn). split; [exact Hb|]. split; [apply rotation_failure_IdsOk, Hi|exact Hn].
Qed.

Lemma rotation_failure_contained s k :
  abs (rotation_create_fails s) = abs s /\
  get_latest_entry (rotation_create_fails s) k None = get_latest_entry s k None /\
  s_alive (rotation_create_fails s) = s_alive s /\
  (IdsOk s -> IdsOk (rotation_create_fails s)).
Proof. repeat split; try reflexivity; apply rotation_failure_IdsOk; assumption. Qed.

Definition f_cfg : config := {| c_dup := true; c_maxrec := 1000; c_maxsize := 1000000 |}.
Definition f_hist : list op := [OOpen false; OWrite 1 7 None 8 5 1; OWrite 2 7 None 8 5 2].

(* the blob 0 is closed with its index still in memory, then its dump fails: the acknowledged record is still
   served, as the log says it must be *)
Lemma dump_failure_keeps_records :
  let s := fst (step 4 f_cfg (reach 4 f_cfg f_hist) OCloseActive) in   (* closed, index still in memory *)
  get_latest_entry s 1 None = Found (mk_rec 1 7 false None 8 5 1) /\
  get_latest_entry (dump_fails_on s 0) 1 None = Found (mk_rec 1 7 false None 8 5 1) /\
  spec_read (abs (dump_fails_on s 0)) 1 = Found (mk_rec 1 7 false None 8 5 1).
Proof. vm_compute. repeat split; reflexivity. Qed.

(* the fsync inside close_active_blob fails: the blob is still there, still active, and the record is served *)
Lemma close_fsync_failure_keeps_blob :
  let s := reach 4 f_cfg f_hist in
  get_latest_entry s 2 None = Found (mk_rec 2 7 false None 8 5 2) /\
  get_latest_entry (close_active_fsync_fails s) 2 None = Found (mk_rec 2 7 false None 8 5 2) /\
  abs (close_active_fsync_fails s) = abs s /\ length (abs (close_active_fsync_fails s)) = 2%nat /\
  s_active (close_active_fsync_fails s) = s_active s.
Proof. vm_compute. repeat split; reflexivity. Qed.

(* the creation of the next blob fails during a rotation: both records are served, the worker lives, and the
   next write still lands (in the blob that stayed active) *)
Lemma rotation_failure_keeps_going :
  let s := rotation_create_fails (reach 4 f_cfg f_hist) in
  get_latest_entry s 1 None = Found (mk_rec 1 7 false None 8 5 1) /\
  get_latest_entry s 2 None = Found (mk_rec 2 7 false None 8 5 2) /\
  s_alive s = true /\ s_next s = 2 /\
  get_latest_entry (fst (step_q 4 f_cfg s (OWrite 3 7 None 8 5 3))) 3 None = Found (mk_rec 3 7 false None 8 5 3).
Proof. vm_compute. repeat split; reflexivity. Qed.

Print Assumptions append_failure_contained.
Print Assumptions dump_failure_contained.
Print Assumptions close_fsync_failure_contained.
Print Assumptions rotation_failure_contained.
Print Assumptions rotation_failure_Inv.
Print Assumptions dump_failure_keeps_records.
Print Assumptions close_fsync_failure_keeps_blob.
Print Assumptions rotation_failure_keeps_going.

(* One failed file operation inside a client call (Fault.v: fault_outcomes). Every fault outcome is a cancel outcome, possibly followed by the request for the deferred index dump (a partially
   failed delete that marked some blob), so what a cancellation guarantees (CancelProofs: other keys, no harm, later
   operations) carries over. Two things are STRONGER than for a cancellation: a call that returned an error left the
   log and EVERY read (of its own key too) as they were, and the whole invariant survives. *)

Definition upto_dump_request (s1 s' : storage) : Prop := s' = s1 \/ s' = request_dump s1.

Lemma upto_dump_same s1 s' : upto_dump_request s1 s' -> same_blobs s1 s'.
Proof. intros [-> | ->]; [apply same_blobs_refl|apply same_blobs_request_dump]. Qed.

Section FaultOutcomes.
Variable K : N.
Variable cfg : config.

(* a closed blob after the loop of a partially failed delete *)
Definition marked_or_loaded (mk : rec) (b b' : blob) : Prop :=
  b' = fst (fst (blob_delete K b mk true)) \/ (delete_applies b mk true = true /\ b' = blob_load_index K b).

Lemma faulty_slots_exact l mk : forall fails,
  Forall2 (orel (marked_or_loaded mk)) l (fst (delete_in_closed_faulty K l mk fails)).
Proof.
  induction l as [|o l IH]; intros fails; cbn [delete_in_closed_faulty]; [constructor|].
  specialize (IH (tl fails)). destruct (delete_in_closed_faulty K l mk (tl fails)) as [r' n]. cbn [fst] in IH.
  destruct o as [b|]; [|cbn [fst]; constructor; [constructor|exact IH]].
  pose proof (blob_delete_stage K b mk true) as HS.
  destruct (delete_applies b mk true) eqn:A.
  - destruct (hd false fails); cbn [fst]; (constructor; [constructor|exact IH]).
    + right. split; [exact A|reflexivity].
    + left. symmetry. exact HS.
  - cbn [fst]. constructor; [constructor; left; symmetry; exact HS|exact IH].
Qed.

Lemma delete_faulty_blobs_partial s mk oip fails : delete_partial K s mk oip (delete_faulty_blobs K s mk oip fails).
Proof.
  apply dp_closed. apply (Forall2_impl (orel (marked_or_loaded mk))) with (2 := faulty_slots_exact _ mk fails).
  intros o o' [|b b' [-> | [A ->]]]; [constructor|apply blob_delete_slot|]. apply ss_stage; [exact A|apply ds_loaded].
Qed.

Lemma delete_faulty_upto s mk oip fails :
  upto_dump_request (delete_faulty_blobs K s mk oip fails) (delete_faulty K s mk oip fails).
Proof. unfold delete_faulty. destruct (0 <? delete_faulty_marked K s mk oip fails); [right|left]; reflexivity. Qed.

Lemma read_op_public o : read_op o = true -> public_op o = true.
Proof. destruct o; intros H; try discriminate H; reflexivity. Qed.

(* a call that returned an error stopped where a dropped future stops *)
Theorem fault_error_is_cancel_outcome s o s' : fault_error K s o s' -> cancel_outcomes K cfg s o s'.
Proof.
  intros H. split.
  - destruct H as [| | | | | | | |ro Hr]; try reflexivity. apply read_op_public, Hr.
  - destruct H as [k ts meta msize dlen dseed Ho Hn|k ts meta msize dlen dseed Ho
                  |k ts meta msize oip Ho Hoip Hn|k ts meta msize oip Ho| | |Ho Hn|Ho Hn|ro Hr].
    + right. right. split; [exact Ho|]. apply wp_create_dropped, Hn.
    + right. right. split; [exact Ho|]. apply wp_created.
    + right. right. split; [exact Ho|]. apply dp_create_dropped; assumption.
    + right. right. split; [exact Ho|]. apply dp_started.
    + left. reflexivity.
    + left. reflexivity.
    + right. right. split; [exact Ho|]. apply rp_loaded, Hn.
    + right. right. split; [exact Ho|]. apply cp_create_dropped, Hn.
    + left. reflexivity.
Qed.

Theorem fault_outcomes_are_cancel_outcomes s o s' :
  fault_outcomes K cfg s o s' -> exists s1, cancel_outcomes K cfg s o s1 /\ upto_dump_request s1 s'.
Proof.
  intros [H|H].
  - exists s'. split; [apply fault_error_is_cancel_outcome, H|left; reflexivity].
  - destruct H as [o Hp|k ts meta msize oip fails Ho].
    + exists (fst (step K cfg s o)). split; [|left; reflexivity]. split; [exact Hp|]. right. left. reflexivity.
    + exists (delete_faulty_blobs K s (mk_rec k ts true meta msize 0 0) oip fails). split; [|apply delete_faulty_upto].
      split; [reflexivity|]. right. right. split; [exact Ho|]. apply delete_faulty_blobs_partial.
Qed.

Lemma fault_outcomes_public s o s' : fault_outcomes K cfg s o s' -> public_op o = true.
Proof. intros H. destruct (fault_outcomes_are_cancel_outcomes s o s' H) as (s1 & [Hp _] & _). exact Hp. Qed.

Definition is_delete (o : op) : bool := match o with ODelete _ _ _ _ _ => true | _ => false end.

(* literally a cancel outcome, for every operation but the delete *)
Theorem fault_outcomes_are_cancel_outcomes_strict s o s' :
  is_delete o = false -> fault_outcomes K cfg s o s' -> cancel_outcomes K cfg s o s'.
Proof.
  intros Hd [H|H]; [apply fault_error_is_cancel_outcome, H|].
  destruct H as [o Hp|k ts meta msize oip fails Ho]; [|discriminate Hd].
  split; [exact Hp|]. right. left. reflexivity.
Qed.

(* ... and for the delete when no closed blob was marked (no dump request) *)
Theorem failed_delete_is_cancel_outcome s k ts meta msize oip fails :
  s_open s = true -> delete_faulty_marked K s (mk_rec k ts true meta msize 0 0) oip fails = 0 ->
  cancel_outcomes K cfg s (ODelete k ts meta msize oip) (delete_faulty K s (mk_rec k ts true meta msize 0 0) oip fails).
Proof.
  intros Ho Hz. unfold delete_faulty. rewrite Hz. cbn [N.ltb N.compare].
  split; [reflexivity|]. right. right. split; [exact Ho|]. apply delete_faulty_blobs_partial.
Qed.

Theorem fault_outcomes_safe s o s' :
  BlobsOk K s -> s_open s = true -> fault_outcomes K cfg s o s' -> safe (fun k => op_key o <> Some k) s s'.
Proof.
  intros HB Ho H. destruct (fault_outcomes_are_cancel_outcomes s o s' H) as (s1 & Hc & Hu).
  apply (safe_trans _ s s1 s'); [apply (cancel_outcomes_safe K cfg); assumption|].
  apply safe_quiet, (shape_same quiet s1 s1), upto_dump_same, Hu. apply shape_refl, quiet_refl.
Qed.

Theorem fault_other_keys s o s' k :
  BlobsOk K s -> s_open s = true -> fault_outcomes K cfg s o s' -> op_key o <> Some k ->
  of_key k (abs s') = of_key k (abs s) /\
  forall meta, get_latest_entry s' k meta = get_latest_entry s k meta.
Proof. intros HB Ho H. exact (safe_keeps _ _ _ (fault_outcomes_safe s o s' HB Ho H) k). Qed.

Theorem fault_no_harm s o s' :
  BlobsOk K s -> s_open s = true -> fault_outcomes K cfg s o s' -> good s s'.
Proof. intros HB Ho H. apply (safe_good _ _ _ (fault_outcomes_safe s o s' HB Ho H)). Qed.

Theorem fault_later_ops s o s' :
  BlobsOk K s -> s_open s = true -> fault_outcomes K cfg s o s' ->
  (ActiveInMemory s -> ActiveInMemory s') /\ s_alive s' = s_alive s /\ (IdsOk s -> IdsOk s') /\ s_open s' = true.
Proof.
  intros HB Ho H. apply (safe_later (fun k => op_key o <> Some k) s s'); [apply fault_outcomes_safe|]; assumption.
Qed.

Theorem fault_then_no_index_error s o s' o2 :
  BlobsOk K s -> ActiveInMemory s -> s_open s = true -> fault_outcomes K cfg s o s' ->
  snd (step K cfg s' o2) <> RErr EIndex.
Proof. intros HB HA Ho H. apply step_no_index_error. apply (fault_later_ops s o s' HB Ho H), HA. Qed.

Theorem fault_then_write_acknowledged s o s' k ts meta msize dlen dseed :
  BlobsOk K s -> ActiveInMemory s -> s_open s = true -> fault_outcomes K cfg s o s' ->
  snd (step K cfg s' (OWrite k ts meta msize dlen dseed)) = RUnit.
Proof.
  intros HB HA Ho H. destruct (fault_later_ops s o s' HB Ho H) as (C & _ & _ & F).
  rewrite (step_open K cfg s' _ F). apply do_write_ack, C, HA.
Qed.

Lemma Forall2_quiet_recs l l' : Forall2 quiet l l' -> flat_map b_recs l' = flat_map b_recs l.
Proof.
  induction 1 as [|b b' l l' Hb HF IH]; [reflexivity|]. cbn [flat_map]. rewrite IH, (q_recs _ _ Hb). reflexivity.
Qed.

Lemma shape_quiet_same s s' :
  shape quiet s s' -> abs s' = abs s /\ forall k meta, get_latest_entry s' k meta = get_latest_entry s k meta.
Proof.
  intros H. split; [apply Forall2_quiet_recs, shape_bio, H|].
  intros k. apply (shape_keeps quiet k s s'); [apply quiet_bsame|exact H].
Qed.

(* every state a failed call leaves differs from s, or from s with its active blob created, by the place of an index
   and one blob id used up at most *)
Lemma fault_error_quiet s o s' :
  fault_error K s o s' -> (o = ORestoreActive -> BlobsOk K s) ->
  shape quiet s s' \/ shape quiet (ensure_active s) s'.
Proof.
  intros H HB.
  destruct H as [k ts meta msize dlen dseed Ho Hn|k ts meta msize dlen dseed Ho
                |k ts meta msize oip Ho Hoip Hn|k ts meta msize oip Ho| | |Ho Hn|Ho Hn|ro Hr].
  - left. apply shape_burn_id, quiet_refl.
  - right. apply shape_refl, quiet_refl.
  - left. apply shape_burn_id, quiet_refl.
  - destruct oip; [left|right]; apply shape_refl, quiet_refl.
  - left. apply shape_refl, quiet_refl.
  - left. apply shape_refl, quiet_refl.
  - left. apply (restore_partial_quiet K); [apply HB; reflexivity|apply rp_loaded, Hn].
  - left. apply shape_burn_id, quiet_refl.
  - left. apply shape_refl, quiet_refl.
Qed.

Lemma fault_error_no_trace_gen s o s' :
  fault_error K s o s' -> (o = ORestoreActive -> BlobsOk K s) ->
  abs s' = abs s /\ forall k meta, get_latest_entry s' k meta = get_latest_entry s k meta.
Proof.
  intros H HB. destruct (fault_error_quiet s o s' H HB) as [Hs|Hs]; [apply shape_quiet_same, Hs|].
  destruct (shape_quiet_same _ s' Hs) as [A R].
  split; [rewrite A; apply abs_ensure_active|]. intros k meta. rewrite R. apply (keeps_ensure_active k s).
Qed.

Theorem fault_error_leaves_no_trace s o s' :
  BlobsOk K s -> fault_error K s o s' ->
  abs s' = abs s /\ forall k meta, get_latest_entry s' k meta = get_latest_entry s k meta.
Proof. intros HB H. apply (fault_error_no_trace_gen s o s' H). intros _. exact HB. Qed.

(* for a write no hypothesis on the state is needed *)
Theorem failed_write_leaves_no_trace s k ts meta msize dlen dseed s' :
  fault_error K s (OWrite k ts meta msize dlen dseed) s' ->
  abs s' = abs s /\ forall k' meta', get_latest_entry s' k' meta' = get_latest_entry s k' meta'.
Proof. intros H. apply (fault_error_no_trace_gen s _ s' H). intros E. discriminate E. Qed.

Corollary failed_write_not_served s k ts meta msize dlen dseed s' k' :
  fault_error K s (OWrite k ts meta msize dlen dseed) s' -> spec_read (abs s') k' = spec_read (abs s) k'.
Proof. intros H. rewrite (proj1 (failed_write_leaves_no_trace _ _ _ _ _ _ _ _ H)). reflexivity. Qed.

(* every closed blob got its marker AND indexed it (or does not hold the key: then Blob::delete leaves it alone),
   or it is the blob it was with its index loaded; the active blob is fully processed *)
Theorem failed_delete_markers s k ts meta msize oip fails :
  let mk := mk_rec k ts true meta msize 0 0 in
  let s' := delete_faulty K s mk oip fails in
  Forall2 (orel (marked_or_loaded mk)) (s_closed (delete_start s oip)) (s_closed s') /\
  s_active s' = option_map (fun b => fst (fst (blob_delete K b mk oip))) (s_active (delete_start s oip)).
Proof.
  intros mk s'. destruct (upto_dump_same _ _ (delete_faulty_upto s mk oip fails)) as (Ec & Ea & _).
  fold s' in Ec, Ea. rewrite Ec, Ea. unfold delete_faulty_blobs. cbn [upd_closed s_closed s_active].
  split; [apply faulty_slots_exact|apply delete_active_done_active].
Qed.

(* sanity of the model: when no marker append fails the blobs are those of the completed delete *)
Lemma faulty_none_slots l mk :
  fst (delete_in_closed_faulty K l mk []) = map (option_map (fun b => fst (fst (blob_delete K b mk true)))) l.
Proof.
  induction l as [|[b|] l IH]; cbn [delete_in_closed_faulty map option_map tl hd]; [reflexivity| |].
  - destruct (delete_in_closed_faulty K l mk []) as [r' n]. cbn [fst] in IH. subst r'.
    rewrite (blob_delete_stage K b mk true). destruct (delete_applies b mk true); reflexivity.
  - destruct (delete_in_closed_faulty K l mk []) as [r' n]. cbn [fst] in IH. subst r'. reflexivity.
Qed.

Theorem delete_faulty_no_failure s k ts meta msize oip :
  let s' := delete_faulty K s (mk_rec k ts true meta msize 0 0) oip [] in
  s_closed s' = s_closed (fst (do_delete K s k ts meta msize oip)) /\
  s_active s' = s_active (fst (do_delete K s k ts meta msize oip)).
Proof.
  intros s'. destruct (do_delete_slots K s k ts meta msize oip) as [Ec Ea]. rewrite Ec, Ea.
  destruct (failed_delete_markers s k ts meta msize oip []) as [_ Ha]. split; [|exact Ha].
  destruct (upto_dump_same _ _ (delete_faulty_upto s (mk_rec k ts true meta msize 0 0) oip [])) as [Ec' _].
  unfold s'. rewrite Ec'. unfold delete_faulty_blobs. cbn [upd_closed s_closed]. apply faulty_none_slots.
Qed.

Theorem failed_delete_log s k ts meta msize oip s' :
  BlobsOk K s -> s_open s = true -> fault_outcomes K cfg s (ODelete k ts meta msize oip) s' ->
  exists s0, (s0 = s \/ (oip = false /\ s0 = ensure_active s)) /\
    Forall2 (orel (marker_ext (mk_rec k ts true meta msize 0 0) true)) (s_closed s0) (s_closed s') /\
    orel (marker_ext (mk_rec k ts true meta msize 0 0) oip) (s_active s0) (s_active s').
Proof.
  intros HB Ho H. destruct (fault_outcomes_are_cancel_outcomes s _ s' H) as (s1 & Hc & Hu).
  destruct (upto_dump_same _ _ Hu) as (Ec & Ea & _). rewrite Ec, Ea.
  apply (cancelled_delete_log K cfg); assumption.
Qed.

Theorem failed_delete_read s k ts meta msize oip s' :
  BlobsOk K s -> s_open s = true -> fault_outcomes K cfg s (ODelete k ts meta msize oip) s' ->
  forall meta',
    get_latest_entry s' k meta' = get_latest_entry s k meta' \/
    get_latest_entry s' k meta' = get_latest_entry (fst (step K cfg s (ODelete k ts meta msize oip))) k meta'.
Proof.
  intros HB Ho H meta'. destruct (fault_outcomes_are_cancel_outcomes s _ s' H) as (s1 & Hc & Hu).
  assert (E : get_latest_entry s' k meta' = get_latest_entry s1 k meta').
  { destruct Hu as [-> | ->]; [reflexivity|apply (keeps_request_dump k s1)]. }
  rewrite E. apply (cancelled_delete_read K cfg); assumption.
Qed.

(* BlobsOk is kept. This does not come from CancelProofs: a cancellation may break idx_ok (ds_bytes, wp_bytes). *)
Lemma Forall2_closed_ok (R : blob -> blob -> Prop) l l' :
  (forall b b', R b b' -> blob_ok K b -> blob_ok K b') -> Forall2 (orel R) l l' ->
  (forall b, In (Some b) l -> blob_ok K b) -> forall b', In (Some b') l' -> blob_ok K b'.
Proof.
  intros HR HF Hl b' Hin. destruct (Forall2_in_r _ _ _ HF _ Hin) as (o & Ho & Hr).
  inversion Hr as [|b b0 Hb Eb E0]. subst. apply (HR b b' Hb), Hl, Ho.
Qed.

Lemma marked_or_loaded_ok mk b b' : marked_or_loaded mk b b' -> blob_ok K b -> blob_ok K b'.
Proof. intros [-> | [_ ->]] Hb; [apply blob_delete_keeps_ok, Hb|apply blob_load_index_ok, Hb]. Qed.

Lemma BlobsOk_delete_faulty s mk oip fails : BlobsOk K s -> BlobsOk K (delete_faulty K s mk oip fails).
Proof.
  intros HB. pose proof (BlobsOk_delete_start K s oip HB) as H0.
  assert (H1 : BlobsOk K (delete_faulty_blobs K s mk oip fails)).
  { unfold delete_faulty_blobs. apply BlobsOk_upd_closed.
    - unfold delete_active_done. destruct (s_active (delete_start s oip)) as [a|] eqn:EA; [|exact H0].
      apply BlobsOk_upd_active; [exact H0|]. intros b E. injection E as <-. apply blob_delete_keeps_ok, (proj2 H0), EA.
    - apply (Forall2_closed_ok (marked_or_loaded mk) (s_closed (delete_start s oip)));
        [apply marked_or_loaded_ok|apply faulty_slots_exact|apply (proj1 H0)]. }
  unfold delete_faulty. destruct (0 <? delete_faulty_marked K s mk oip fails); [apply BlobsOk_request_dump, H1|exact H1].
Qed.

Lemma do_write_BlobsOk_mem s k ts meta msize dlen dseed :
  BlobsOk K s -> ActiveInMemory s -> BlobsOk K (fst (do_write K cfg s k ts meta msize dlen dseed)).
Proof.
  intros HB HA. apply (BlobsOk_ensure_active K) in HB. apply aim_ensure_active in HA.
  destruct (do_write_cases K cfg s k ts meta msize dlen dseed) as [E|(a & b' & ok & EA & A & E)]; rewrite E; [exact HB|].
  pose proof (blob_append_mem a (mk_rec k ts false meta msize dlen dseed) (HA a EA)) as Hok. rewrite A in Hok. cbn [snd] in Hok. subst ok. cbn [fst].
  apply BlobsOk_maybe_rotate, BlobsOk_upd_active; [exact HB|].
  intros b Hb. injection Hb as <-. apply (blob_append_ok K a _ b' (proj2 HB a EA) A).
Qed.

(* only a write needs the active index in memory: an append to a blob whose index is on disk is not indexed *)
Lemma public_step_BlobsOk s o :
  public_op o = true -> BlobsOk K s -> (is_delete o = false -> ActiveInMemory s) -> BlobsOk K (fst (step K cfg s o)).
Proof.
  intros Hp HB HA. unfold step. destruct (needs_open o && negb (s_open s)); [exact HB|].
  destruct o; try discriminate Hp; try exact HB.
  - apply do_write_BlobsOk_mem; [exact HB|apply HA; reflexivity].
  - apply do_delete_BlobsOk, HB.
  - pose proof (BlobsOk_close_active K s HB) as H1. destruct (close_active s) as [s' e].
    cbn [fst] in *. apply BlobsOk_request_dump, H1.
  - pose proof (BlobsOk_create_active K s HB) as H1. destruct (create_active s) as [s' e]. exact H1.
  - pose proof (BlobsOk_restore_active K s HB) as H1. destruct (restore_active K s) as [s' e]. exact H1.
Qed.

Lemma quiet_ok b b' : quiet b b' -> blob_ok K b -> blob_ok K b'.
Proof.
  intros Q [Hi Hf]. unfold blob_ok, idx_ok, idxfile_ok. rewrite (q_idx _ _ Q), (q_recs _ _ Q), (q_idxfile _ _ Q).
  split; assumption.
Qed.

Lemma shape_BlobsOk (R : blob -> blob -> Prop) s s' :
  (forall b b', R b b' -> blob_ok K b -> blob_ok K b') -> shape R s s' -> BlobsOk K s -> BlobsOk K s'.
Proof.
  intros HR H [Hc Ha]. split; [apply (Forall2_closed_ok R (s_closed s) _ HR (sh_closed _ _ _ H) Hc)|].
  intros b' Eb. pose proof (sh_active _ _ _ H) as Ho. rewrite Eb in Ho. inversion Ho as [|b b0 Hb E0 E1]. subst b0.
  apply (HR b b' Hb), Ha. symmetry. exact E0.
Qed.

Lemma fault_outcomes_BlobsOk s o s' :
  BlobsOk K s -> (is_delete o = false -> ActiveInMemory s) -> fault_outcomes K cfg s o s' -> BlobsOk K s'.
Proof.
  intros HB HA [H|H].
  - destruct (fault_error_quiet s o s' H (fun _ => HB)) as [Hs|Hs]; apply (shape_BlobsOk quiet _ s' quiet_ok Hs);
      [exact HB|apply BlobsOk_ensure_active, HB].
  - destruct H as [o Hp|k ts meta msize oip fails Ho]; [apply public_step_BlobsOk; assumption|].
    apply BlobsOk_delete_faulty, HB.
Qed.

Theorem fault_keeps_BlobsOk s o s' :
  BlobsOk K s -> ActiveInMemory s -> fault_outcomes K cfg s o s' -> BlobsOk K s'.
Proof. intros HB HA. apply fault_outcomes_BlobsOk; [exact HB|intros _; exact HA]. Qed.

(* for a delete (failed, partially failed, or completed) the active blob need not be in memory *)
Theorem failed_delete_keeps_BlobsOk s k ts meta msize oip s' :
  BlobsOk K s -> fault_outcomes K cfg s (ODelete k ts meta msize oip) s' -> BlobsOk K s'.
Proof. intros HB. apply fault_outcomes_BlobsOk; [exact HB|intros E; discriminate E]. Qed.

Theorem fault_keeps_Inv s o s' :
  Inv K s -> ActiveInMemory s -> s_open s = true -> fault_outcomes K cfg s o s' -> Inv K s' /\ ActiveInMemory s'.
Proof.
  intros (HB & HI & _) HA Ho H. destruct (fault_later_ops s o s' HB Ho H) as (C & _ & E & F).
  split; [|apply C, HA]. split; [apply (fault_keeps_BlobsOk s o s'); assumption|].
  split; [apply E, HI|]. intros Hc. rewrite F in Hc. discriminate Hc.
Qed.

Theorem reach_fault_containment ops o s' :
  s_open (reach K cfg ops) = true -> fault_outcomes K cfg (reach K cfg ops) o s' ->
  (forall k, op_key o <> Some k ->
     of_key k (abs s') = of_key k (abs (reach K cfg ops)) /\
     forall meta, get_latest_entry s' k meta = get_latest_entry (reach K cfg ops) k meta) /\
  good (reach K cfg ops) s' /\
  Inv K s' /\ ActiveInMemory s' /\ s_alive s' = s_alive (reach K cfg ops) /\ s_open s' = true /\
  forall k ts meta msize dlen dseed, snd (step K cfg s' (OWrite k ts meta msize dlen dseed)) = RUnit.
Proof.
  intros Ho H. pose proof (reach_Inv K cfg ops) as HI. pose proof (reach_ActiveInMemory K cfg ops) as HA.
  pose proof (proj1 HI) as HB.
  split; [intros k Hk; apply (fault_other_keys (reach K cfg ops) o s' k); assumption|].
  split; [apply (fault_no_harm (reach K cfg ops) o s'); assumption|].
  destruct (fault_keeps_Inv _ o s' HI HA Ho H) as [HI' HA'].
  destruct (fault_later_ops _ o s' HB Ho H) as (_ & D & _ & F).
  split; [exact HI'|]. split; [exact HA'|]. split; [exact D|]. split; [exact F|].
  intros k ts meta msize dlen dseed. apply (fault_then_write_acknowledged (reach K cfg ops) o s'); assumption.
Qed.

End FaultOutcomes.

Theorem bg_fault_contained K s s' :
  bg_fault_outcomes s s' ->
  abs s' = abs s /\ (forall k meta, get_latest_entry s' k meta = get_latest_entry s k meta) /\
  s_alive s' = s_alive s /\ s_open s' = s_open s /\ (Inv K s -> Inv K s') /\ (ActiveInMemory s -> ActiveInMemory s').
Proof.
  intros [id| |].
  - rewrite dump_fails_on_id. split; [reflexivity|]. split; [intros k meta; reflexivity|]. split; [reflexivity|].
    split; [reflexivity|]. split; intros HX; exact HX.
  - split; [reflexivity|]. split; [intros k meta; reflexivity|]. split; [reflexivity|]. split; [reflexivity|].
    split; [apply rotation_failure_Inv|]. intros HA. exact HA.
  - split; [reflexivity|]. split; [intros k meta; reflexivity|]. split; [reflexivity|].
    split; [reflexivity|]. split; intros HX; exact HX.
Qed.

(* Why "possibly followed by the dump request": the literal inclusion is false (fd_out_is_not_a_cancel_outcome). *)
Lemma dump_req_delete_start s oip : s_dump_req (delete_start s oip) = s_dump_req s.
Proof. unfold delete_start, ensure_active. destruct oip; [reflexivity|]. destruct (s_active s); reflexivity. Qed.

(* a dropped delete never requests the dump: the request follows the loop over the closed blobs *)
Lemma delete_partial_dump_req K s mk oip s' : delete_partial K s mk oip s' -> s_dump_req s' = s_dump_req s.
Proof.
  intros [Hoip Hn| |b b' Ea Happ Hst|c' HF].
  - reflexivity.
  - apply dump_req_delete_start.
  - cbn [upd_active s_dump_req]. apply dump_req_delete_start.
  - cbn [upd_closed s_dump_req]. unfold delete_active_done.
    destruct (s_active (delete_start s oip)); cbn [upd_active s_dump_req]; apply dump_req_delete_start.
Qed.

(* Computed: a delete over two closed blobs, the marker append fails in one.
   blob 0 (closed, index on disk) holds key 1 (timestamp 7) and key 2, blob 1 (closed, index on disk) holds key 1
   (timestamp 8); no active blob. delete(key 1, timestamp 9, only_if_presented); the marker append fails in blob 0. *)
Definition fd_state : storage :=
  reach 4 f_cfg [OOpen false; OWrite 1 7 None 8 5 1; OWrite 2 7 None 8 5 2; OCloseActive; OCreateActive;
                 OWrite 1 8 None 8 5 3; OCloseActive].
Definition fd_op : op := ODelete 1 9 None 8 true.
Definition fd_mk : rec := mk_rec 1 9 true None 8 0 0.
Definition fd_out : storage := delete_faulty 4 fd_state fd_mk true [true; false].

Lemma fd_out_is_fault_outcome : fault_outcomes 4 f_cfg fd_state fd_op fd_out.
Proof. right. apply (fl_delete_closed 4 f_cfg fd_state 1 9 None 8 true [true; false]). vm_compute. reflexivity. Qed.

(* blob 0: index loaded, no marker; blob 1: marker appended and indexed; the call answers Ok(1); the dump of the
   indexes is requested *)
Lemma fd_out_blobs :
  s_closed fd_out =
    match s_closed fd_state with
    | [Some b0; Some b1] => [Some (blob_load_index 4 b0); Some (fst (blob_append (blob_load_index 4 b1) fd_mk))]
    | l => l
    end /\
  map (fun b => length (b_recs b)) (blobs_in_order fd_state) = [2; 1]%nat /\
  map (fun b => length (b_recs b)) (blobs_in_order fd_out) = [2; 2]%nat /\
  map (fun b => length (b_recs b)) (blobs_in_order (fst (step 4 f_cfg fd_state fd_op))) = [3; 2]%nat /\
  delete_faulty_answer 4 fd_state fd_mk true [true; false] = RNum 1 /\
  snd (step 4 f_cfg fd_state fd_op) = RNum 2 /\
  s_dump_req fd_state = false /\ s_dump_req fd_out = true /\
  delete_faulty 4 fd_state fd_mk true [] = fst (step 4 f_cfg fd_state fd_op).   (* no failure: the completed delete *)
Proof. vm_compute. repeat split; reflexivity. Qed.

(* the key of the call reads as AFTER the completed delete (the newer blob got its marker), not as before;
   the other key is unchanged; the state satisfies the invariant and the next write is acknowledged *)
Lemma fd_out_reads :
  get_latest_entry fd_state 1 None = Found (mk_rec 1 8 false None 8 5 3) /\
  get_latest_entry fd_out 1 None = Deleted 9 /\
  get_latest_entry (fst (step 4 f_cfg fd_state fd_op)) 1 None = Deleted 9 /\
  get_latest_entry fd_out 2 None = Found (mk_rec 2 7 false None 8 5 2) /\
  get_latest_entry fd_state 2 None = Found (mk_rec 2 7 false None 8 5 2) /\
  of_key 2 (abs fd_out) = of_key 2 (abs fd_state) /\
  get_latest_entry fd_out 1 None = spec_read (abs fd_out) 1 /\
  snd (step 4 f_cfg fd_out (OWrite 3 7 None 8 5 4)) = RUnit.
Proof. vm_compute. repeat split; reflexivity. Qed.

Lemma fd_out_invariant : Inv 4 fd_out /\ ActiveInMemory fd_out.
Proof.
  apply (fault_keeps_Inv 4 f_cfg fd_state fd_op fd_out);
    [apply reach_Inv|apply reach_ActiveInMemory|vm_compute; reflexivity|apply fd_out_is_fault_outcome].
Qed.

(* fd_out is NOT literally a cancel outcome of the delete: a dropped delete has not requested the dump *)
Lemma fd_out_is_not_a_cancel_outcome : ~ cancel_outcomes 4 f_cfg fd_state fd_op fd_out.
Proof.
  intros [_ [E|[E|[_ Hp]]]].
  - assert (E2 := f_equal s_dump_req E). vm_compute in E2. discriminate E2.
  - assert (E2 := f_equal (fun s => length (abs s)) E). vm_compute in E2. discriminate E2.
  - cbn [partial_outcomes] in Hp. apply delete_partial_dump_req in Hp. vm_compute in Hp. discriminate Hp.
Qed.

(* the corner the theorem `failed_delete_read` leaves open, computed (state and delete of CancelProofs.d_state:
   key 1 at timestamps 7 and 8 in two closed blobs, delete at timestamp 8): the marker append fails in the NEWER
   blob. The call answers Ok(1), the marker is in the log, and the key still reads as BEFORE the delete (the
   newer blob answers Found 8; the marker of the older blob has an equal timestamp and does not replace it) *)
Definition fd2_out : storage := delete_faulty 4 d_state d_mk true [false; true].

Lemma fd2_out_is_fault_outcome : fault_outcomes 4 c_cfg d_state d_op fd2_out.
Proof. right. apply (fl_delete_closed 4 c_cfg d_state 1 8 None 8 true [false; true]). vm_compute. reflexivity. Qed.

Lemma fd2_out_reads :
  delete_faulty_answer 4 d_state d_mk true [false; true] = RNum 1 /\
  In d_mk (abs fd2_out) /\
  get_latest_entry d_state 1 None = Found (mk_rec 1 8 false None 8 5 2) /\
  get_latest_entry fd2_out 1 None = Found (mk_rec 1 8 false None 8 5 2) /\
  get_latest_entry (fst (step 4 c_cfg d_state d_op)) 1 None = Deleted 8.
Proof. split; [vm_compute; reflexivity|]. split; [vm_compute; auto|]. vm_compute. repeat split; reflexivity. Qed.

Print Assumptions fault_outcomes_are_cancel_outcomes.
Print Assumptions fault_outcomes_are_cancel_outcomes_strict.
Print Assumptions fault_error_is_cancel_outcome.
Print Assumptions failed_delete_is_cancel_outcome.
Print Assumptions fault_other_keys.
Print Assumptions fault_no_harm.
Print Assumptions fault_later_ops.
Print Assumptions fault_then_no_index_error.
Print Assumptions fault_then_write_acknowledged.
Print Assumptions fault_error_leaves_no_trace.
Print Assumptions failed_write_leaves_no_trace.
Print Assumptions failed_write_not_served.
Print Assumptions failed_delete_markers.
Print Assumptions delete_faulty_no_failure.
Print Assumptions failed_delete_log.
Print Assumptions failed_delete_read.
Print Assumptions fault_keeps_BlobsOk.
Print Assumptions failed_delete_keeps_BlobsOk.
Print Assumptions fault_keeps_Inv.
Print Assumptions reach_fault_containment.
Print Assumptions bg_fault_contained.
Print Assumptions fd_out_is_fault_outcome.
Print Assumptions fd_out_blobs.
Print Assumptions fd_out_reads.
Print Assumptions fd_out_invariant.
Print Assumptions fd_out_is_not_a_cancel_outcome.
Print Assumptions fd2_out_is_fault_outcome.
Print Assumptions fd2_out_reads.
