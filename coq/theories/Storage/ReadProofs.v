(* C01: Storage::get_latest_entry (read / contains) returns the top-ranked record of the key. *)
Require Import Pearl.Base.Prelude Pearl.Storage.Model Pearl.Storage.Spec Pearl.Storage.IndexProofs Pearl.Storage.Inv.

Definition IdxInv (s : storage) : Prop := Forall idx_ok (blobs_in_order s).

Lemma rr_ts_to_rr o : rr_ts r_ts (to_rr o) = option_map r_ts o.
Proof. destruct o as [r|]; [|reflexivity]. cbn. destruct (r_del r); reflexivity. Qed.

Lemma rr_latest_to_rr self other :
  rr_latest r_ts (to_rr self) (to_rr other) = to_rr (newer other self).
Proof.
  unfold rr_latest. rewrite !rr_ts_to_rr.
  destruct self as [s|], other as [o|]; cbn [option_map opt_gt newer]; try reflexivity.
  rewrite N.ltb_antisym. destruct (r_ts o <=? r_ts s); reflexivity.
Qed.

(* blobs newest first: the order in which the storage visits them *)
Definition newest_first (s : storage) : list blob :=
  (match s_active s with Some b => [b] | None => [] end) ++ rev (closed_blobs s).

Lemma newest_first_rev s : newest_first s = rev (blobs_in_order s).
Proof.
  unfold newest_first, blobs_in_order. rewrite rev_app_distr. destruct (s_active s); reflexivity.
Qed.

Lemma IdxInv_newest_first s : IdxInv s -> Forall idx_ok (newest_first s).
Proof. intros H. rewrite newest_first_rev. apply Forall_rev, H. Qed.

Section Key.
Variable k : N.

Lemma get_latest_entry_newest_first s meta :
  get_latest_entry s k meta
  = fold_left (fun acc b => rr_latest r_ts acc (blob_get_latest (b_idx b) k meta)) (newest_first s) NotFound.
Proof. unfold get_latest_entry, newest_first. destruct (s_active s); reflexivity. Qed.

Definition pb (b : blob) : option rec := top_ranked (of_key k (b_recs b)).

Lemma blob_latest_ok b : idx_ok b -> blob_get_latest (b_idx b) k None = to_rr (pb b).
Proof. intros H. cbn [blob_get_latest]. rewrite H. apply idx_get_latest_index_of. Qed.

Lemma fold_latest bs : Forall idx_ok bs -> forall acc,
  fold_left (fun a b => rr_latest r_ts a (blob_get_latest (b_idx b) k None)) bs (to_rr acc)
  = to_rr (fold_left (fun a b => newer (pb b) a) bs acc).
Proof.
  induction 1 as [|b bs Hb Hbs IH]; intros acc; cbn [fold_left]; [reflexivity|].
  rewrite blob_latest_ok by assumption. rewrite rr_latest_to_rr. apply IH.
Qed.

Lemma top_ranked_blobs bs :
  top_ranked (of_key k (flat_map b_recs bs)) = fold_left (fun a b => newer (pb b) a) (rev bs) None.
Proof.
  induction bs as [|b bs IH]; [reflexivity|].
  cbn [flat_map rev]. rewrite of_key_app, top_ranked_app, IH, fold_left_app. reflexivity.
Qed.

Theorem read_latest s : IdxInv s -> get_latest_entry s k None = spec_read (abs s) k.
Proof.
  intros H. rewrite get_latest_entry_newest_first. change (@NotFound rec) with (to_rr None).
  rewrite fold_latest by (apply IdxInv_newest_first, H).
  unfold spec_read, abs. rewrite top_ranked_blobs, <- newest_first_rev. reflexivity.
Qed.

End Key.

Lemma BlobsOk_IdxInv K s : BlobsOk K s -> IdxInv s.
Proof.
  intros [Hc Ha]. unfold IdxInv, blobs_in_order. apply Forall_app. split.
  - apply Forall_flat_map, Forall_forall. intros [b|] Hb; [|constructor]. constructor; [apply (Hc b Hb)|constructor].
  - destruct (s_active s) as [a|]; [|constructor]. constructor; [|constructor]. apply (Ha a eq_refl).
Qed.
