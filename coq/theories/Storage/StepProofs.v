(* The shape of the operations of the L3 model (Model.v).

   Every operation is put together from a few moves: a dump request, a fresh active blob, closing or restoring the
   active blob, a write, a delete, the background dump, the end of a session, a start, damage between two sessions.
   A property kept by each move is kept by every step, hence by every history.
   The fields that only `open`, `close` and crash damage touch form the `frame` of a state. *)
Require Import Pearl.Base.Prelude Pearl.Storage.Model.

Lemma create_active_fst s : fst (create_active s) = ensure_active s.
Proof. unfold create_active, ensure_active. destruct (s_active s); reflexivity. Qed.

Lemma replace_active_eq s : replace_active s = ensure_active (fst (close_active s)).
Proof.
  unfold replace_active, close_active. destruct (s_active s) as [b|] eqn:E; cbn [fst].
  - reflexivity.
  - unfold ensure_active. rewrite E. reflexivity.
Qed.

Lemma request_dump_cases s : request_dump s = s \/ request_dump s = upd_dump_req s true.
Proof. unfold request_dump. destruct (s_alive s); auto. Qed.

Lemma worker_cases s f : worker s f = s \/ worker s f = fst (f s).
Proof. unfold worker. destruct (s_alive s); auto. Qed.

Lemma ensure_active_some s : exists a, s_active (ensure_active s) = Some a.
Proof.
  unfold ensure_active. destruct (s_active s) as [a|] eqn:E; [exists a; exact E|].
  exists (new_blob (s_next s)). reflexivity.
Qed.

Lemma blob_append_mem b r : b_ondisk b = false -> snd (blob_append b r) = true.
Proof. intros D. unfold blob_append. rewrite D. reflexivity. Qed.

Section K.
Variable K : N.

Lemma blob_load_index_mem b : b_ondisk (blob_load_index K b) = false.
Proof. unfold blob_load_index. destruct (b_ondisk b) eqn:D; [reflexivity|exact D]. Qed.

(* the deletion record is pushed after load_index, so the push never fails *)
Lemma blob_delete_succeeds b mk oip : snd (blob_delete K b mk oip) = true.
Proof.
  unfold blob_delete.
  destruct (negb oip || match idx_get_latest (b_idx b) (r_key mk) with Found _ => true | _ => false end); [|reflexivity].
  pose proof (blob_append_mem (blob_load_index K b) mk (blob_load_index_mem b)) as Hok.
  destruct (blob_append (blob_load_index K b) mk) as [b2 ok]. exact Hok.
Qed.

Lemma delete_in_closed_f2 l mk : snd (delete_in_closed K l mk) = false.
Proof.
  induction l as [|[x|] l IH]; cbn [delete_in_closed]; [reflexivity| |].
  - destruct (delete_in_closed K l mk) as [[r' n] f]. cbn [snd] in IH. subst f.
    pose proof (blob_delete_succeeds x mk true) as Hok. destruct (blob_delete K x mk true) as [[b' d] ok].
    cbn [snd] in *. subst ok. reflexivity.
  - destruct (delete_in_closed K l mk) as [[r' n] f]. exact IH.
Qed.

(* the closed blobs are processed slot by slot, independently *)
Lemma delete_in_closed_map l mk :
  fst (fst (delete_in_closed K l mk)) = map (option_map (fun b => fst (fst (blob_delete K b mk true)))) l.
Proof.
  induction l as [|[x|] l IH]; cbn [delete_in_closed map option_map]; [reflexivity| |].
  - destruct (delete_in_closed K l mk) as [[r' n1] f1]. cbn [fst] in IH. subst r'.
    destruct (blob_delete K x mk true) as [[b' d] ok]. reflexivity.
  - destruct (delete_in_closed K l mk) as [[r' n1] f1]. cbn [fst] in IH. subst r'. reflexivity.
Qed.

Variable cfg : config.

Lemma maybe_rotate_cases s : maybe_rotate K cfg s = s \/ maybe_rotate K cfg s = request_dump (replace_active s).
Proof.
  unfold maybe_rotate. destruct (s_active s) as [a|]; [|auto].
  destruct (blob_full K cfg a && s_aged s && s_alive s); auto.
Qed.

Lemma quiesce_cases s : quiesce K s = s \/ quiesce K s = upd_dump_req (dump_all_closed K s) false.
Proof. unfold quiesce. destruct (s_alive s && s_dump_req s); auto. Qed.

Lemma quiesce_dead s : s_alive s = false -> quiesce K s = s.
Proof. intros H. unfold quiesce. rewrite H. reflexivity. Qed.

Lemma do_write_cases s k ts meta msize dlen dseed :
  let s1 := ensure_active s in
  do_write K cfg s k ts meta msize dlen dseed = (s1, RUnit) \/
  exists a b' ok, s_active s1 = Some a /\ blob_append a (mk_rec k ts false meta msize dlen dseed) = (b', ok) /\
    do_write K cfg s k ts meta msize dlen dseed =
      if ok then (maybe_rotate K cfg (upd_active s1 (Some b')), RUnit)
      else (upd_f2 (upd_active s1 (Some b')) true, RErr EIndex).
Proof.
  intros s1. unfold do_write. cbv zeta. fold s1.
  destruct (negb (c_dup cfg) && is_found (get_latest_entry s1 k meta)); [left; reflexivity|].
  destruct (ensure_active_some s) as [a EA]. fold s1 in EA. right.
  exists a, (fst (blob_append a (mk_rec k ts false meta msize dlen dseed))),
            (snd (blob_append a (mk_rec k ts false meta msize dlen dseed))).
  split; [exact EA|]. split; [apply surjective_pairing|]. rewrite EA.
  destruct (blob_append a (mk_rec k ts false meta msize dlen dseed)) as [b' ok]. destruct ok; reflexivity.
Qed.

(* blob_delete_succeeds and delete_in_closed_f2 make the error branch and the ghost flag of do_delete dead *)
Lemma do_delete_cases (s : storage) k ts meta msize (oip : bool) :
  let s0 := if oip then s else ensure_active s in
  let mk := mk_rec k ts true meta msize 0 0 in
  exists s1 n,
    (s_active s0 = None /\ s1 = s0 \/
     exists a, s_active s0 = Some a /\ s1 = upd_active s0 (Some (fst (fst (blob_delete K a mk oip))))) /\
    let s2 := upd_f2 (upd_closed s1 (fst (fst (delete_in_closed K (s_closed s1) mk)))) false in
    (do_delete K s k ts meta msize oip = (s2, RNum n) \/ do_delete K s k ts meta msize oip = (request_dump s2, RNum n)).
Proof.
  intros s0 mk. unfold do_delete. cbv zeta. fold s0 mk.
  destruct (s_active s0) as [a|] eqn:EA.
  - pose proof (blob_delete_succeeds a mk oip) as Hok.
    destruct (blob_delete K a mk oip) as [[b' d] ok] eqn:B. cbn [snd] in Hok. subst ok. cbn [negb].
    pose proof (delete_in_closed_f2 (s_closed (upd_active s0 (Some b'))) mk) as Hf.
    destruct (delete_in_closed K (s_closed (upd_active s0 (Some b'))) mk) as [[c' nc] f] eqn:D. cbn [snd] in Hf. subst f.
    exists (upd_active s0 (Some b')), ((if d then 1 else 0) + nc).
    split; [right; exists a; rewrite B; split; reflexivity|]. rewrite D. cbn [fst].
    destruct (0 <? nc); [right|left]; reflexivity.
  - cbn [negb]. pose proof (delete_in_closed_f2 (s_closed s0) mk) as Hf.
    destruct (delete_in_closed K (s_closed s0) mk) as [[c' nc] f] eqn:D. cbn [snd] in Hf. subst f.
    exists s0, (0 + nc). split; [left; split; reflexivity|]. rewrite D. cbn [fst].
    destruct (0 <? nc); [right|left]; reflexivity.
Qed.

Lemma do_write_preserves (P : storage -> Prop) s k ts meta msize dlen dseed
    (r := mk_rec k ts false meta msize dlen dseed) :
  (forall s, P s -> P (ensure_active s)) ->
  (forall s a, s_active s = Some a -> P s -> P (upd_active s (Some (fst (blob_append a r))))) ->
  (forall s, P s -> P (maybe_rotate K cfg s)) ->
  (forall s, P s -> P (upd_f2 s true)) ->
  P s -> P (fst (do_write K cfg s k ts meta msize dlen dseed)).
Proof.
  intros He Ha Hm Hf H. apply He in H.
  destruct (do_write_cases s k ts meta msize dlen dseed) as [E|(a & b' & ok & EA & A & E)]; rewrite E; [exact H|].
  apply (Ha _ a EA) in H. fold r in A. rewrite A in H.
  destruct ok; cbn [fst]; [apply Hm, H|apply Hf, H].
Qed.

Lemma do_delete_preserves (P : storage -> Prop) (s : storage) k ts meta msize (oip : bool)
    (mk := mk_rec k ts true meta msize 0 0) :
  (forall s, P s -> P (ensure_active s)) ->
  (forall s a, s_active s = Some a -> P s -> P (upd_active s (Some (fst (fst (blob_delete K a mk oip)))))) ->
  (forall s, P s -> P (upd_f2 (upd_closed s (fst (fst (delete_in_closed K (s_closed s) mk)))) false)) ->
  (forall s, P s -> P (request_dump s)) ->
  P s -> P (fst (do_delete K s k ts meta msize oip)).
Proof.
  intros He Ha Hc Hr H.
  assert (H0 : P (if oip then s else ensure_active s)) by (destruct oip; [exact H|apply He, H]).
  destruct (do_delete_cases s k ts meta msize oip) as (s1 & n & Hs1 & E). fold mk in Hs1, E.
  assert (H1 : P s1).
  { destruct Hs1 as [[_ ->]|(a & EA & ->)]; [exact H0|apply (Ha _ a EA), H0]. }
  apply Hc in H1. destruct E as [E|E]; rewrite E; [exact H1|apply Hr, H1].
Qed.

Lemma step_q_fst s o : fst (step_q K cfg s o) = quiesce K (fst (step K cfg s o)).
Proof. unfold step_q. destruct (step K cfg s o). reflexivity. Qed.

Lemma step_q_snd s o : snd (step_q K cfg s o) = snd (step K cfg s o).
Proof. unfold step_q. destruct (step K cfg s o). reflexivity. Qed.

Lemma run_cons s o ops : fst (run K cfg s (o :: ops)) = fst (run K cfg (fst (step_q K cfg s o)) ops).
Proof. cbn [run]. destruct (step_q K cfg s o) as [s' x]. cbn [fst]. destruct (run K cfg s' ops). reflexivity. Qed.

Lemma run_app ops1 : forall ops2 s,
  fst (run K cfg s (ops1 ++ ops2)) = fst (run K cfg (fst (run K cfg s ops1)) ops2).
Proof.
  induction ops1 as [|o r IH]; intros ops2 s; [reflexivity|].
  cbn [app]. rewrite !run_cons. apply IH.
Qed.

Lemma step_q_lift (P : storage -> Prop) :
  (forall s o, P s -> P (fst (step K cfg s o))) -> (forall s, P s -> P (quiesce K s)) ->
  forall s o, P s -> P (fst (step_q K cfg s o)).
Proof. intros Hs Hq s o H. rewrite step_q_fst. apply Hq, Hs, H. Qed.

Lemma run_lift (P : storage -> Prop) :
  (forall s o, P s -> P (fst (step_q K cfg s o))) -> forall ops s, P s -> P (fst (run K cfg s ops)).
Proof.
  intros Hs ops. induction ops as [|o ops IH]; intros s H; [exact H|].
  rewrite run_cons. apply IH, Hs, H.
Qed.

Lemma step_refused s o : needs_open o = true -> s_open s = false -> step K cfg s o = (s, RErr ENoStorage).
Proof. intros Hn Ho. unfold step. rewrite Hn, Ho. reflexivity. Qed.

Lemma step_open s o : s_open s = true ->
  step K cfg s o =
  match o with
  | OWrite k ts meta msize dlen dseed => do_write K cfg s k ts meta msize dlen dseed
  | ODelete k ts meta msize oip => do_delete K s k ts meta msize oip
  | ORead k => (s, RRead (get_latest_entry s k None))
  | OReadWith k m => (s, RRead (get_latest_entry s k (Some m)))
  | OContains k => (s, RRead (get_latest_entry s k None))
  | OReadAll k => (s, RList (read_all s k))
  | OReadAllDm k => (s, RList (read_all_dm s k))
  | OCloseActive =>
    let '(s', e) := close_active s in
    (request_dump s', match e with Some e => RErr e | None => RUnit end)
  | OCreateActive => let '(s', e) := create_active s in (s', match e with Some e => RErr e | None => RUnit end)
  | ORestoreActive => let '(s', e) := restore_active K s in (s', match e with Some e => RErr e | None => RUnit end)
  | OBgClose => (request_dump (worker s close_active), RUnit)
  | OBgCreate => (worker s create_active, RUnit)
  | OBgRestore => (worker s (restore_active K), RUnit)
  | OForceUpdate p =>
    let s' := if s_alive s && eval_pred p s then replace_active s else s in (request_dump s', RUnit)
  | OFreeExcess => (request_dump s, RUnit)
  | OQuiesce => let s' := quiesce K s in (s', RAlive (s_alive s'))
  | OSleep => (upd_aged s true, RUnit)
  | OCounts => (s, counts s)
  | OClose => (closed_state (do_close K s) s, RUnit)
  | ODrop => (closed_state (closed_blobs s ++ match s_active s with Some b => [b] | None => [] end) s, RUnit)
  | OOpen lazy => (s, RErr EAlreadyOpen)
  | ORmIndex id =>
    let present := existsb (fun b => (b_id b =? id) && match b_idxfile b with Some _ => true | None => false end) (closed_blobs s) in
    (upd_closed s (map (fun o => match o with
                                 | Some b => Some (if b_id b =? id then rm_index b else b)
                                 | None => None end) (s_closed s)), RNum (if present then 1 else 0))
  | OCut id keep => (s, RUnit)
  end.
Proof.
  intros Ho. unfold step. rewrite Ho. cbn [negb]. rewrite andb_false_r.
  destruct o; try reflexivity. unfold do_cut. rewrite Ho. reflexivity.
Qed.

(* the frame: what only `open`, `close` and crash damage touch *)
Definition frame (s : storage) : bool * bool * list N * list N * N :=
  (s_open s, s_alive s, s_quar s, s_bad s, s_corrupted s).

Lemma frame_fields s s' : frame s' = frame s ->
  s_open s' = s_open s /\ s_alive s' = s_alive s /\ s_quar s' = s_quar s /\ s_bad s' = s_bad s /\
  s_corrupted s' = s_corrupted s.
Proof. unfold frame. intros E. injection E as E1 E2 E3 E4 E5. auto. Qed.

Lemma frame_open s s' : frame s' = frame s -> s_open s' = s_open s.
Proof. intros E. apply frame_fields in E. apply E. Qed.

Lemma frame_alive s s' : frame s' = frame s -> s_alive s' = s_alive s.
Proof. intros E. apply frame_fields in E. apply E. Qed.

Lemma frame_request_dump s : frame (request_dump s) = frame s.
Proof. destruct (request_dump_cases s) as [->| ->]; reflexivity. Qed.

Lemma frame_ensure_active s : frame (ensure_active s) = frame s.
Proof. unfold ensure_active. destruct (s_active s); reflexivity. Qed.

Lemma frame_close_active s : frame (fst (close_active s)) = frame s.
Proof. unfold close_active. destruct (s_active s); reflexivity. Qed.

Lemma frame_restore_active s : frame (fst (restore_active K s)) = frame s.
Proof.
  unfold restore_active. destruct (s_active s); [reflexivity|].
  destruct (pop_last (s_closed s)) as [[b c]|]; reflexivity.
Qed.

Lemma frame_maybe_rotate s : frame (maybe_rotate K cfg s) = frame s.
Proof. destruct (maybe_rotate_cases s) as [->| ->]; [reflexivity|]. rewrite frame_request_dump. reflexivity. Qed.

Lemma frame_quiesce s : frame (quiesce K s) = frame s.
Proof. destruct (quiesce_cases s) as [->| ->]; reflexivity. Qed.

Lemma frame_do_write s k ts meta msize dlen dseed : frame (fst (do_write K cfg s k ts meta msize dlen dseed)) = frame s.
Proof.
  destruct (do_write_cases s k ts meta msize dlen dseed) as [E|(a & b' & ok & _ & _ & E)]; rewrite E.
  - apply frame_ensure_active.
  - destruct ok; cbn [fst]; [rewrite frame_maybe_rotate|]; apply frame_ensure_active.
Qed.

Lemma frame_do_delete s k ts meta msize oip : frame (fst (do_delete K s k ts meta msize oip)) = frame s.
Proof.
  apply (do_delete_preserves (fun s' => frame s' = frame s)); [| | | |reflexivity].
  - intros s0 E. rewrite frame_ensure_active. exact E.
  - intros s0 a _ E. exact E.
  - intros s0 E. exact E.
  - intros s0 E. rewrite frame_request_dump. exact E.
Qed.

(* the ghost flag: raised by a failing write only *)
Lemma f2_request_dump s : s_f2 (request_dump s) = s_f2 s.
Proof. destruct (request_dump_cases s) as [->| ->]; reflexivity. Qed.

Lemma f2_ensure_active s : s_f2 (ensure_active s) = s_f2 s.
Proof. unfold ensure_active. destruct (s_active s); reflexivity. Qed.

Lemma f2_close_active s : s_f2 (fst (close_active s)) = s_f2 s.
Proof. unfold close_active. destruct (s_active s); reflexivity. Qed.

Lemma f2_restore_active s : s_f2 (fst (restore_active K s)) = s_f2 s.
Proof.
  unfold restore_active. destruct (s_active s); [reflexivity|].
  destruct (pop_last (s_closed s)) as [[b c]|]; reflexivity.
Qed.

Lemma f2_maybe_rotate s : s_f2 (maybe_rotate K cfg s) = s_f2 s.
Proof. destruct (maybe_rotate_cases s) as [->| ->]; [reflexivity|]. rewrite f2_request_dump. reflexivity. Qed.

Theorem f2_quiesce : forall s, s_f2 (quiesce K s) = s_f2 s.
Proof. intros s. destruct (quiesce_cases s) as [->| ->]; reflexivity. Qed.

Lemma f2_do_delete s k ts meta msize oip : s_f2 (fst (do_delete K s k ts meta msize oip)) = s_f2 s.
Proof.
  apply (do_delete_preserves (fun s' => s_f2 s' = s_f2 s)); [| | | |reflexivity].
  - intros s0 E. rewrite f2_ensure_active. exact E.
  - intros s0 a _ E. exact E.
  - intros s0 E. cbn [s_f2 upd_f2 upd_closed]. rewrite orb_false_r. exact E.
  - intros s0 E. rewrite f2_request_dump. exact E.
Qed.

Section Preserved.
Variable P : storage -> Prop.
(* the moves of a running storage *)
Hypothesis P_request_dump : forall s, s_open s = true -> P s -> P (request_dump s).
Hypothesis P_ensure_active : forall s, s_open s = true -> P s -> P (ensure_active s).
Hypothesis P_close_active : forall s, s_open s = true -> P s -> P (fst (close_active s)).
Hypothesis P_restore_active : forall s, s_open s = true -> P s -> P (fst (restore_active K s)).
Hypothesis P_quiesce : forall s, s_open s = true -> P s -> P (quiesce K s).
Hypothesis P_write : forall s k ts meta msize dlen dseed,
  s_open s = true -> P s -> P (fst (do_write K cfg s k ts meta msize dlen dseed)).
Hypothesis P_delete : forall s k ts meta msize oip,
  s_open s = true -> P s -> P (fst (do_delete K s k ts meta msize oip)).
(* at any time *)
Hypothesis P_sleep : forall s, P s -> P (upd_aged s true).
Hypothesis P_rm_index : forall s id, P s ->
  P (upd_closed s (map (fun o => match o with
                                 | Some b => Some (if b_id b =? id then rm_index b else b)
                                 | None => None end) (s_closed s))).

(* every operation on a running storage, but the end of the session *)
Theorem session_preserves s o : s_open s = true -> o <> OClose -> o <> ODrop -> P s -> P (fst (step K cfg s o)).
Proof.
  intros Ho Hc Hd H.
  assert (Hca : s_open (fst (close_active s)) = true) by (rewrite (frame_open _ _ (frame_close_active s)); exact Ho).
  rewrite (step_open s o Ho). destruct o; cbn [fst]; try exact H; try contradiction.
  - apply P_write; assumption.
  - apply P_delete; assumption.
  - pose proof (P_close_active s Ho H) as H1. destruct (close_active s) as [s' e]. apply P_request_dump; assumption.
  - pose proof (create_active_fst s) as E. destruct (create_active s) as [s' e]. cbn [fst] in E.
    rewrite E. apply P_ensure_active; assumption.
  - pose proof (P_restore_active s Ho H) as H1. destruct (restore_active K s) as [s' e]. exact H1.
  - destruct (worker_cases s close_active) as [->| ->]; apply P_request_dump; auto.
  - destruct (worker_cases s create_active) as [->| ->]; [exact H|].
    rewrite create_active_fst. apply P_ensure_active; assumption.
  - destruct (worker_cases s (restore_active K)) as [->| ->]; [exact H|apply P_restore_active; assumption].
  - destruct (s_alive s && eval_pred pred s); [|apply P_request_dump; assumption].
    apply P_request_dump; [exact Ho|]. rewrite replace_active_eq. apply P_ensure_active; auto.
  - apply P_request_dump; assumption.
  - apply P_quiesce; assumption.
  - apply P_sleep, H.
  - apply P_rm_index, H.
Qed.

(* the end of a session, a start, crash damage in between *)
Hypothesis P_close : forall s, s_open s = true -> P s -> P (closed_state (do_close K s) s).
Hypothesis P_drop : forall s, s_open s = true -> P s ->
  P (closed_state (closed_blobs s ++ match s_active s with Some b => [b] | None => [] end) s).
Hypothesis P_open : forall s lazy, s_open s = false -> P s ->
  P (do_open K (closed_blobs s) (s_bad s) (s_quar s) (s_corrupted s) lazy (s_f2 s)).
Hypothesis P_cut : forall s id keep, P s -> P (do_cut K s id keep).

Theorem step_preserves s o : P s -> P (fst (step K cfg s o)).
Proof.
  intros H. destruct (s_open s) eqn:Ho.
  - destruct o; try (apply session_preserves; [exact Ho|discriminate|discriminate|exact H]);
      rewrite (step_open s _ Ho); cbn [fst]; [apply P_close|apply P_drop]; assumption.
  - destruct (needs_open o) eqn:Hn; [rewrite (step_refused s o Hn Ho); exact H|].
    unfold step. rewrite Hn. cbn [andb]. destruct o; try discriminate Hn; cbn [fst].
    + apply P_sleep, H.
    + rewrite Ho. apply P_open; assumption.
    + apply P_rm_index, H.
    + apply P_cut, H.
Qed.

End Preserved.

Lemma frame_session s o : s_open s = true -> o <> OClose -> o <> ODrop -> frame (fst (step K cfg s o)) = frame s.
Proof.
  intros Ho Hc Hd. apply (session_preserves (fun s' => frame s' = frame s)); try assumption; try reflexivity.
  - intros s0 _ E. rewrite frame_request_dump. exact E.
  - intros s0 _ E. rewrite frame_ensure_active. exact E.
  - intros s0 _ E. rewrite frame_close_active. exact E.
  - intros s0 _ E. rewrite frame_restore_active. exact E.
  - intros s0 _ E. rewrite frame_quiesce. exact E.
  - intros s0 k ts meta msize dlen dseed _ E. rewrite frame_do_write. exact E.
  - intros s0 k ts meta msize oip _ E. rewrite frame_do_delete. exact E.
  - intros s0 E. exact E.
  - intros s0 id E. exact E.
Qed.

End K.
