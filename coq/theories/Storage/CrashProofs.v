(* Crash damage of blob files and quarantine, in the L3 storage model.

   Between two sessions a crash may leave a blob file cut (op `OCut id keep` of Model.v):
     keep = Some j   at the boundary behind its j-th record: the next start serves exactly the records in front of
                     the cut (byte level: Blob/ScanProofs.scan_prefix_exact);
     keep = None     inside a record or inside the blob header: the file cannot be read back, the next start moves
                     it to the corrupted directory (`s_quar`), and its id is never handed out again.
   The invariants, the counters, the reads and the worker after a history with such damage need no theorem of their
   own: the theorems of Theorems.v, CountsProofs.v and WorkerProofs.v quantify over ALL lists of operations, and
   OCut is one of the operations. *)
Require Import Pearl.Base.Prelude Pearl.Storage.Model Pearl.Storage.Spec Pearl.Storage.Inv Pearl.Storage.InvProofs
               Pearl.Storage.WorkerProofs Pearl.Storage.Theorems.

Definition same_ir (b b' : blob) : Prop := b_id b' = b_id b /\ b_recs b' = b_recs b.

Lemma Forall2_same_refl l : Forall2 same_ir l l.
Proof. apply Forall2_diag. intros b. split; reflexivity. Qed.

Lemma Forall2_same_ids l l' : Forall2 same_ir l l' -> map b_id l' = map b_id l.
Proof. induction 1 as [|x y l l' [Hi _] _ IH]; [reflexivity|]. cbn [map]. rewrite Hi, IH. reflexivity. Qed.

Lemma Forall2_same_in l l' : Forall2 same_ir l l' -> forall b, In b l -> exists b', In b' l' /\ same_ir b b'.
Proof. apply Forall2_in_l. Qed.

Lemma Forall2_same_in_r l l' : Forall2 same_ir l l' -> forall b', In b' l' -> exists b, In b l /\ same_ir b b'.
Proof. apply Forall2_in_r. Qed.

Lemma Forall2_same_filter (p : N -> bool) l l' : Forall2 same_ir l l' ->
  Forall2 same_ir (filter (fun b => p (b_id b)) l) (filter (fun b => p (b_id b)) l').
Proof.
  induction 1 as [|x y l l' Hxy _ IH]; [constructor|]. cbn [filter]. rewrite (proj1 Hxy).
  destruct (p (b_id x)); [constructor; assumption|exact IH].
Qed.

Lemma Forall2_same_recs l l' : Forall2 same_ir l l' -> flat_map b_recs l' = flat_map b_recs l.
Proof. induction 1 as [|x y l l' [_ Hr] _ IH]; [reflexivity|]. cbn [flat_map]. rewrite Hr, IH. reflexivity. Qed.

Section K.
Variable K : N.
Variable cfg : config.

Notation reach := (reach K cfg).

Lemma dump_req_do_open files bad quar c lazy f2 : s_dump_req (do_open K files bad quar c lazy f2) = false.
Proof. destruct (do_open_shape K files bad quar c lazy f2) as (a & r & n & -> & _). reflexivity. Qed.

Lemma step_q_open s lazy : s_open s = false ->
  fst (step_q K cfg s (OOpen lazy)) = do_open K (closed_blobs s) (s_bad s) (s_quar s) (s_corrupted s) lazy (s_f2 s).
Proof.
  intros Ho. unfold step_q, step. rewrite Ho. cbn [needs_open negb andb fst].
  unfold quiesce. rewrite dump_req_do_open, andb_false_r. reflexivity.
Qed.

Lemma step_q_cut s id keep : s_alive s = false -> fst (step_q K cfg s (OCut id keep)) = do_cut K s id keep.
Proof.
  intros Ha. unfold step_q, step. cbn [needs_open andb fst]. apply quiesce_dead.
  unfold do_cut. destruct (s_open s); [exact Ha|]. destruct keep as [j|]; [exact Ha|].
  destruct (existsb (fun b => b_id b =? id) (closed_blobs s)); exact Ha.
Qed.

(* the files a session leaves when it ends, with close() or without *)
Definition files_left (e : op) (s : storage) : list blob :=
  match e with
  | OClose => do_close K s
  | _ => blobs_in_order s
  end.

Lemma files_left_same e s : Forall2 same_ir (blobs_in_order s) (files_left e s).
Proof.
  destruct e; try apply Forall2_same_refl. unfold files_left, do_close, blobs_in_order.
  apply Forall2_app; [apply Forall2_same_refl|]. destruct (s_active s) as [a|]; constructor; [|constructor].
  split; [apply blob_dump_id|apply blob_dump_recs].
Qed.

Lemma same_quiesce s : Forall2 same_ir (blobs_in_order s) (blobs_in_order (quiesce K s)).
Proof.
  destruct (quiesce_cases K s) as [->| ->]; [apply Forall2_same_refl|].
  unfold blobs_in_order. rewrite !closed_blobs_cb. cbn [upd_dump_req dump_all_closed upd_closed s_closed s_active].
  rewrite cb_map_opt. apply Forall2_app; [|apply Forall2_same_refl].
  apply Forall2_map_r. intros b. split; [apply blob_dump_id|apply blob_dump_recs].
Qed.

Lemma step_q_end e s : ends_session e -> s_open s = true -> fst (step_q K cfg s e) = closed_state (files_left e s) s.
Proof.
  intros He Ho. unfold step_q, step. rewrite Ho.
  destruct He as [-> | ->]; cbn [needs_open negb andb]; apply quiesce_dead; reflexivity.
Qed.

(* a session ends, a blob file is damaged, the next session starts: the start reads the damaged directory *)
Lemma damaged_restart ops e id keep lazy :
  s_open (reach ops) = true -> ends_session e ->
  let s := reach ops in
  let d := do_cut K (closed_state (files_left e s) s) id keep in
  reach (ops ++ [e; OCut id keep; OOpen lazy]) =
  do_open K (closed_blobs d) (s_bad d) (s_quar s) (s_corrupted s) lazy (s_f2 s).
Proof.
  intros Ho He s d. rewrite reach_app, !run_cons. fold s. cbn [run fst]. rewrite (step_q_end e s He Ho).
  rewrite (step_q_cut _ id keep) by reflexivity. fold d.
  rewrite (step_q_open d lazy) by (unfold d; rewrite open_do_cut; reflexivity).
  unfold d. rewrite quar_do_cut, corrupted_do_cut, f2_do_cut. reflexivity.
Qed.

Lemma cut_some_closed files s id j :
  closed_blobs (do_cut K (closed_state files s) id (Some j)) = map (cut_blob K id j) files /\
  s_bad (do_cut K (closed_state files s) id (Some j)) = s_bad s.
Proof.
  split; [|reflexivity]. rewrite closed_blobs_cb. unfold do_cut. cbn [closed_state s_open upd_closed s_closed].
  rewrite cb_map_opt, cb_map_Some. reflexivity.
Qed.

Lemma cut_none_closed files s id : (exists f, In f files /\ b_id f = id) -> s_bad s = [] ->
  closed_blobs (do_cut K (closed_state files s) id None) = files /\
  s_bad (do_cut K (closed_state files s) id None) = [id].
Proof.
  intros (f & Hf & Ef) HB. unfold do_cut. cbn [closed_state s_open]. rewrite closed_blobs_closed_state.
  assert (EX : existsb (fun b => b_id b =? id) files = true).
  { apply existsb_exists. exists f. split; [exact Hf|apply N.eqb_eq, Ef]. }
  rewrite EX. split; [apply closed_blobs_closed_state|]. cbn [upd_bad s_bad closed_state]. rewrite HB. reflexivity.
Qed.

(* the log of a directory in which the file of blob `id` was cut behind its j-th record *)
Definition cut_log (id : N) (j : nat) (files : list blob) : log := flat_map (fun b => b_recs (cut_blob K id j b)) files.

(* what the cut does to one file: the first j records stay -- unless the blob is another one, or the cut would go
   below the size an index file of the blob records (synced before the index was written: not lost in a crash) *)
Lemma cut_blob_recs id j b :
  b_recs (cut_blob K id j b) = if (b_id b =? id) && cut_applies K j b then firstn j (b_recs b) else b_recs b.
Proof. unfold cut_blob. destruct ((b_id b =? id) && cut_applies K j b); reflexivity. Qed.

Lemma cut_applies_no_index j b : b_idxfile b = None -> cut_applies K j b = true.
Proof. intros E. unfold cut_applies. rewrite E. reflexivity. Qed.

Lemma cut_applies_size j b sz m :
  b_idxfile b = Some (sz, m) -> cut_applies K j b = (sz <=? size_of K (firstn j (b_recs b))).
Proof. intros E. unfold cut_applies. rewrite E. reflexivity. Qed.

Lemma cut_log_other id j files : (forall b, In b files -> b_id b <> id) -> cut_log id j files = flat_map b_recs files.
Proof.
  intros H. unfold cut_log. induction files as [|x l IH]; [reflexivity|]. cbn [flat_map].
  rewrite IH by (intros b Hb; apply H; right; exact Hb). rewrite cut_blob_recs.
  destruct (N.eqb_spec (b_id x) id) as [E|_]; [exfalso; apply (H x (or_introl eq_refl) E)|reflexivity].
Qed.

Theorem cut_boundary_restart : forall ops e id j lazy,
  s_open (reach ops) = true -> ends_session e ->
  abs (reach (ops ++ [e; OCut id (Some j); OOpen lazy])) = cut_log id j (files_left e (reach ops)).
Proof.
  intros ops e id j lazy Ho He. rewrite (damaged_restart ops e id (Some j) lazy Ho He). cbv zeta.
  destruct (cut_some_closed (files_left e (reach ops)) (reach ops) id j) as [EC EB]. rewrite EC, EB.
  rewrite (reach_open_no_bad K cfg ops Ho). unfold abs. rewrite do_open_recs.
  - rewrite good_files_nil. unfold cut_log. rewrite flat_map_concat_map, map_map, <- flat_map_concat_map. reflexivity.
  - rewrite (map_id_ext _ _ (cut_blob_id K id j)). rewrite (Forall2_same_ids _ _ (files_left_same e (reach ops))).
    apply reach_IdsOk.
Qed.

Theorem cut_boundary_of_key : forall ops e id j lazy k,
  s_open (reach ops) = true -> ends_session e ->
  of_key k (abs (reach (ops ++ [e; OCut id (Some j); OOpen lazy]))) = of_key k (cut_log id j (files_left e (reach ops))).
Proof. intros ops e id j lazy k Ho He. rewrite cut_boundary_restart by assumption. reflexivity. Qed.

Theorem cut_boundary_reads : forall ops e id j lazy k,
  s_open (reach ops) = true -> ends_session e ->
  get_latest_entry (reach (ops ++ [e; OCut id (Some j); OOpen lazy])) k None
  = spec_read (cut_log id j (files_left e (reach ops))) k.
Proof. intros ops e id j lazy k Ho He. rewrite reach_read_latest, cut_boundary_restart by assumption. reflexivity. Qed.

(* a key none of whose records sits in blob `id` reads as before the crash *)
Lemma of_key_flat_map k (f g : blob -> list rec) l :
  (forall b, In b l -> of_key k (f b) = of_key k (g b)) -> of_key k (flat_map f l) = of_key k (flat_map g l).
Proof.
  intros H. induction l as [|x l IH]; [reflexivity|]. cbn [flat_map]. unfold of_key in *. rewrite !filter_app.
  rewrite (H x (or_introl eq_refl)), IH by (intros b Hb; apply H; right; exact Hb). reflexivity.
Qed.

Lemma of_key_firstn_nil k j l : of_key k l = [] -> of_key k (firstn j l) = [].
Proof.
  intros H. rewrite <- (firstn_skipn j l) in H. unfold of_key in *. rewrite filter_app in H.
  apply app_eq_nil in H. apply H.
Qed.

Theorem cut_boundary_other_keys : forall ops e id j lazy k,
  s_open (reach ops) = true -> ends_session e ->
  (forall b, In b (blobs_in_order (reach ops)) -> b_id b = id -> of_key k (b_recs b) = []) ->
  get_latest_entry (reach (ops ++ [e; OCut id (Some j); OOpen lazy])) k None = get_latest_entry (reach ops) k None.
Proof.
  intros ops e id j lazy k Ho He Hk. rewrite cut_boundary_reads by assumption. rewrite reach_read_latest.
  unfold spec_read. f_equal. f_equal. unfold abs. rewrite <- (Forall2_same_recs _ _ (files_left_same e (reach ops))).
  unfold cut_log. apply of_key_flat_map. intros f Hf. rewrite cut_blob_recs.
  destruct (N.eqb_spec (b_id f) id) as [E|_]; cbn [andb]; [|reflexivity].
  destruct (cut_applies K j f); [|reflexivity].
  destruct (Forall2_same_in_r _ _ (files_left_same e (reach ops)) f Hf) as (b & Hb & Hi & Hr).
  assert (E0 : of_key k (b_recs f) = []) by (rewrite Hr; apply (Hk b Hb); congruence).
  rewrite E0. apply of_key_firstn_nil, E0.
Qed.

(* ids of quarantined files are never handed out again: after EVERY history no blob has the id of a file of the
   corrupted directory, and a running storage hands out ids above all of them *)
Theorem quarantined_ids_never_reused : forall ops,
  let s := reach ops in
  (forall b, In b (blobs_in_order s) -> ~ In (b_id b) (s_quar s)) /\
  (s_open s = true -> forall q, In q (s_quar s) -> q < s_next s) /\
  s_corrupted s = N.of_nat (length (s_quar s)).
Proof.
  intros ops s. destruct (reach_IdsOk K cfg ops) as (_ & _ & H3 & H4 & _ & H6). fold s in H3, H4, H6. auto.
Qed.

Lemma quar_step_q s o : exists t, s_quar (fst (step_q K cfg s o)) = s_quar s ++ t.
Proof.
  rewrite step_q_fst, (proj1 (qf_inv _ _ (qf_quiesce K _))).
  destruct (touches_quar o) eqn:Ht.
  - destruct o; try discriminate Ht; unfold step; cbn [needs_open andb fst].
    + destruct (s_open s); cbn [fst]; [exists []; symmetry; apply app_nil_r|].
      eexists. apply do_open_quar.
    + exists []. rewrite app_nil_r. apply quar_do_cut.
  - exists []. rewrite app_nil_r. pose proof (qf_step K cfg s o Ht) as Q. apply qf_inv in Q. apply Q.
Qed.

Theorem quarantine_only_grows : forall ops ops2, exists t, s_quar (reach (ops ++ ops2)) = s_quar (reach ops) ++ t.
Proof.
  intros ops ops2. induction ops2 as [|o ops2 IH] using rev_ind.
  - exists []. rewrite !app_nil_r. reflexivity.
  - destruct IH as [t IH]. rewrite app_assoc, reach_snoc.
    destruct (quar_step_q (reach (ops ++ ops2)) o) as [t' E]. exists (t ++ t'). rewrite E, IH, app_assoc. reflexivity.
Qed.

Theorem quarantined_id_stays_unused : forall ops ops2 q,
  In q (s_quar (reach ops)) -> forall b, In b (blobs_in_order (reach (ops ++ ops2))) -> b_id b <> q.
Proof.
  intros ops ops2 q Hq b Hb E. destruct (quarantine_only_grows ops ops2) as [t Et].
  apply (proj1 (quarantined_ids_never_reused (ops ++ ops2)) b Hb). rewrite E, Et. apply in_or_app. left. exact Hq.
Qed.

Definition without (id : N) (l : list blob) : list blob := filter (fun b => negb (b_id b =? id)) l.

Lemma good_files_one id l : good_files [id] l = without id l.
Proof.
  unfold good_files, without. apply filter_ext. intros b. unfold is_bad. cbn [existsb]. rewrite orb_false_r. reflexivity.
Qed.

Lemma new_quar_one id l : increasing (map b_id l) -> (exists b, In b l /\ b_id b = id) -> new_quar [id] l = [id].
Proof.
  unfold new_quar. intros Hinc (b & Hb & Eb). induction l as [|x l IH]; [destruct Hb|].
  cbn [filter]. unfold is_bad at 1. cbn [existsb]. rewrite orb_false_r.
  cbn [map] in Hinc. pose proof (increasing_head_lt _ _ Hinc) as Hlt. destruct (N.eqb_spec (b_id x) id) as [E|NE].
  - cbn [map]. rewrite E. f_equal.
    assert (Hn : forall y, In y l -> is_bad [id] y = false).
    { intros y Hy. unfold is_bad. cbn [existsb]. rewrite orb_false_r. apply N.eqb_neq.
      specialize (Hlt (b_id y) (in_map b_id _ _ Hy)). lia. }
    clear -Hn. induction l as [|y l IHl]; [reflexivity|]. cbn [filter]. rewrite (Hn y (or_introl eq_refl)).
    apply IHl. intros z Hz. apply Hn. right. exact Hz.
  - destruct Hb as [->|Hb]; [contradiction|]. apply IH; [apply (increasing_tail _ _ Hinc)|exact Hb].
Qed.

Theorem cut_inside_quarantines : forall ops e id lazy,
  let s := reach ops in
  let s' := reach (ops ++ [e; OCut id None; OOpen lazy]) in
  s_open s = true -> ends_session e -> (exists b, In b (blobs_in_order s) /\ b_id b = id) ->
  s_quar s' = s_quar s ++ [id] /\
  s_corrupted s' = s_corrupted s + 1 /\
  abs s' = flat_map b_recs (without id (blobs_in_order s)) /\
  (forall b, In b (blobs_in_order s) -> b_id b <> id ->
     exists b', In b' (blobs_in_order s') /\ b_id b' = b_id b /\ b_recs b' = b_recs b) /\
  id < s_next s' /\
  (forall ops2 b', In b' (blobs_in_order (reach ((ops ++ [e; OCut id None; OOpen lazy]) ++ ops2))) -> b_id b' <> id).
Proof.
  intros ops e id lazy s s' Ho He (b0 & Hb0 & Eb0).
  pose proof (files_left_same e s) as HF. set (files := files_left e s) in *.
  assert (Hinc : increasing (map b_id files)).
  { rewrite (Forall2_same_ids _ _ HF). apply reach_IdsOk. }
  assert (Hex : exists f, In f files /\ b_id f = id).
  { destruct (Forall2_same_in _ _ HF b0 Hb0) as (f & Hf & Hi & _). exists f. split; [exact Hf|congruence]. }
  assert (ES : s' = do_open K files [id] (s_quar s) (s_corrupted s) lazy (s_f2 s)).
  { unfold s'. rewrite (damaged_restart ops e id None lazy Ho He). cbv zeta. fold s files.
    destruct (cut_none_closed files s id Hex (reach_open_no_bad K cfg ops Ho)) as [EC EB]. rewrite EC, EB. reflexivity. }
  destruct (do_open_quar K files [id] (s_quar s) (s_corrupted s) lazy (s_f2 s)) as (Eq & Ec & _).
  rewrite <- ES in Eq, Ec. rewrite (new_quar_one id files Hinc Hex) in Eq, Ec.
  assert (Hq : In id (s_quar s')) by (rewrite Eq; apply in_or_app; right; left; reflexivity).
  split; [exact Eq|]. split; [exact Ec|]. split; [|split; [|split]].
  - unfold abs. rewrite ES, do_open_recs by exact Hinc. rewrite good_files_one.
    apply (Forall2_same_recs _ _ (Forall2_same_filter (fun i => negb (i =? id)) _ _ HF)).
  - intros b Hb Hne. destruct (Forall2_same_in _ _ HF b Hb) as (f & Hf & Hi & Hr).
    assert (Hg : In f (good_files [id] files)).
    { rewrite good_files_one. apply filter_In. split; [exact Hf|]. apply negb_true_iff, N.eqb_neq. congruence. }
    destruct (do_open_keeps_recs K files [id] (s_quar s) (s_corrupted s) lazy (s_f2 s) f Hg) as (b' & Hb' & Hi' & Hr').
    exists b'. rewrite ES. split; [exact Hb'|]. split; congruence.
  - apply (proj1 (proj2 (quarantined_ids_never_reused (ops ++ [e; OCut id None; OOpen lazy])))); [|exact Hq].
    fold s'. rewrite ES. apply open_do_open.
  - intros ops2 b' Hb'. apply (quarantined_id_stays_unused _ ops2 id Hq b' Hb').
Qed.

Lemma all_bad_no_good bad files : (forall b, In b files -> In (b_id b) bad) -> good_files bad files = [].
Proof.
  intros H. destruct (good_files bad files) as [|g gs] eqn:E; [reflexivity|].
  assert (Hg : In g (good_files bad files)) by (rewrite E; left; reflexivity).
  apply in_good_files in Hg. destruct Hg as [Hg Hn]. destruct (Hn (H g Hg)).
Qed.

Lemma all_bad_new_quar bad files : (forall b, In b files -> In (b_id b) bad) -> new_quar bad files = map b_id files.
Proof.
  intros H. unfold new_quar. f_equal. induction files as [|x l IH]; [reflexivity|]. cbn [filter].
  assert (Ex : is_bad bad x = true).
  { apply existsb_exists. exists (b_id x). split; [apply H; left; reflexivity|apply N.eqb_refl]. }
  rewrite Ex, IH by (intros b Hb; apply H; right; exact Hb). reflexivity.
Qed.

(* eager start: a fresh active blob whose id lies above the id of every file of both directories *)
Theorem all_quarantined_eager : forall ops,
  let s := reach ops in
  let s' := reach (ops ++ [OOpen false]) in
  s_open s = false -> closed_blobs s <> [] -> (forall b, In b (closed_blobs s) -> In (b_id b) (s_bad s)) ->
  exists n, s_active s' = Some (new_blob n) /\ s_closed s' = [] /\ s_next s' = n + 1 /\
            s_quar s' = s_quar s ++ map b_id (closed_blobs s) /\
            (forall q, In q (s_quar s') -> q < n) /\
            s_corrupted s' = N.of_nat (length (s_quar s')) /\ abs s' = [].
Proof.
  intros ops s s' Ho Hne Hall. unfold s'. rewrite reach_snoc. fold s. rewrite (step_q_open s false Ho).
  rewrite do_open_nonempty by exact Hne. rewrite (all_bad_no_good _ _ Hall), (all_bad_new_quar _ _ Hall).
  cbn [map sort_by_id fold_right rev]. cbv zeta. exists (next_above (map b_id (closed_blobs s) ++ s_quar s)).
  cbn [s_active s_closed s_next s_quar s_corrupted map].
  split; [reflexivity|]. split; [reflexivity|]. split; [reflexivity|]. split; [reflexivity|].
  split; [|split; [|reflexivity]].
  - intros q Hq. apply next_above_bound. apply in_or_app. apply in_app_or in Hq. tauto.
  - rewrite app_length, Nat2N.inj_add, map_length. f_equal.
    apply (proj2 (proj2 (quarantined_ids_never_reused ops))).
Qed.

Theorem all_quarantined_lazy : forall ops,
  let s := reach ops in
  let s' := reach (ops ++ [OOpen true]) in
  s_open s = false -> closed_blobs s <> [] -> (forall b, In b (closed_blobs s) -> In (b_id b) (s_bad s)) ->
  s_active s' = None /\ s_closed s' = [] /\ s_open s' = true /\
  s_quar s' = s_quar s ++ map b_id (closed_blobs s) /\
  (forall q, In q (s_quar s') -> q < s_next s') /\
  s_corrupted s' = N.of_nat (length (s_quar s')).
Proof.
  intros ops s s' Ho Hne Hall. unfold s'. rewrite reach_snoc. fold s. rewrite (step_q_open s true Ho).
  rewrite do_open_nonempty by exact Hne. rewrite (all_bad_no_good _ _ Hall), (all_bad_new_quar _ _ Hall).
  cbn [map sort_by_id fold_right rev]. cbv zeta. cbn [s_active s_closed s_next s_quar s_corrupted s_open map].
  split; [reflexivity|]. split; [reflexivity|]. split; [reflexivity|]. split; [reflexivity|]. split.
  - intros q Hq. apply next_above_bound. apply in_or_app. apply in_app_or in Hq. tauto.
  - rewrite app_length, Nat2N.inj_add, map_length. f_equal.
    apply (proj2 (proj2 (quarantined_ids_never_reused ops))).
Qed.

(* ... and the start after that finds an empty work directory: init_new, with an id above every quarantined one *)
Theorem all_quarantined_lazy_restart : forall ops e lazy2,
  let s := reach ops in
  let s' := reach (ops ++ [OOpen true]) in
  let s'' := reach ((ops ++ [OOpen true]) ++ [e; OOpen lazy2]) in
  s_open s = false -> closed_blobs s <> [] -> (forall b, In b (closed_blobs s) -> In (b_id b) (s_bad s)) ->
  ends_session e ->
  exists n, s_active s'' = Some (new_blob n) /\ s_closed s'' = [] /\ s_next s'' = n + 1 /\
            s_quar s'' = s_quar s' /\ (forall q, In q (s_quar s'') -> q < n) /\
            s_corrupted s'' = N.of_nat (length (s_quar s'')).
Proof.
  intros ops e lazy2 s s' s'' Ho Hne Hall He.
  destruct (all_quarantined_lazy ops Ho Hne Hall) as (Ha & Hc & Hop & Hq & _ & Hcor). fold s s' in Ha, Hc, Hop, Hq, Hcor.
  assert (ES : s'' = do_open K [] [] (s_quar s') (s_corrupted s') lazy2 (s_f2 s')).
  { unfold s''. rewrite reach_app, !run_cons. fold s'. cbn [run fst]. rewrite (step_q_end e s' He Hop).
    assert (EF : files_left e s' = []).
    { destruct He as [-> | ->]; unfold files_left, do_close, blobs_in_order, closed_blobs; rewrite Hc, Ha; reflexivity. }
    rewrite EF. rewrite step_q_open by reflexivity. cbn [closed_state closed_blobs s_closed map flat_map s_bad s_quar s_corrupted s_f2].
    assert (HB : s_bad s' = []) by (apply (reach_open_no_bad K cfg (ops ++ [OOpen true]) Hop)).
    rewrite HB. reflexivity. }
  exists (next_above (s_quar s')). rewrite ES. cbn [do_open s_active s_closed s_next s_quar s_corrupted].
  split; [reflexivity|]. split; [reflexivity|]. split; [reflexivity|]. split; [reflexivity|].
  split; [intros q Hq'; apply next_above_bound, Hq'|exact Hcor].
Qed.

End K.

Definition x_cfg : config := {| c_dup := true; c_maxrec := 1000; c_maxsize := 1000000 |}.
Definition x_keys (s : storage) : list N := map r_key (abs s).
Definition x_ids (s : storage) : list N := map b_id (blobs_in_order s).

(* blob 0 (one record, key 1) is closed, blob 1 (key 2) is active; the session ends without close; the file of
   blob 0 is cut inside its record; the next start quarantines it: the log keeps key 2 only, one corrupted blob, the
   next id is 2 -- and the blob created by the following rotation gets id 2, not 0 *)
Definition x_hist_b : list op :=
  [OOpen false; OWrite 1 7 None 8 5 1; OForceUpdate 0; OWrite 2 8 None 8 5 2; ODrop; OCut 0 None; OOpen false].
Example quarantine_computed :
  let s := reach 4 x_cfg x_hist_b in
  x_ids s = [1] /\ x_keys s = [2] /\ s_quar s = [0] /\ s_corrupted s = 1 /\ s_next s = 2 /\ s_bad s = [] /\
  get_latest_entry s 1 None = NotFound /\ is_found (get_latest_entry s 2 None) = true /\
  counts s = RCounts 1 [(1, 1)] (Some 1) 1 2 1 true /\
  x_ids (reach 4 x_cfg (x_hist_b ++ [OForceUpdate 0])) = [1; 2] /\
  s_quar (reach 4 x_cfg (x_hist_b ++ [OForceUpdate 0; OClose; OOpen true])) = [0].
Proof. vm_compute. repeat split. Qed.

(* the only blob file is unreadable. Eager start: a fresh active blob with id 1. Lazy start: no blob at all;
   after close and another start (init_new on the empty work directory): active blob 1 again, never 0 *)
Definition x_hist_c : list op := [OOpen false; OWrite 1 7 None 8 5 1; OClose; OCut 0 None].
Example all_quarantined_computed :
  let se := reach 4 x_cfg (x_hist_c ++ [OOpen false]) in
  let sl := reach 4 x_cfg (x_hist_c ++ [OOpen true]) in
  let sr := reach 4 x_cfg (x_hist_c ++ [OOpen true; OClose; OOpen false]) in
  s_bad (reach 4 x_cfg x_hist_c) = [0] /\
  (s_active se = Some (new_blob 1) /\ s_closed se = [] /\ s_next se = 2 /\ s_quar se = [0] /\ s_corrupted se = 1) /\
  (s_active sl = None /\ s_closed sl = [] /\ s_next sl = 1 /\ s_quar sl = [0] /\ s_corrupted sl = 1) /\
  (s_active sr = Some (new_blob 1) /\ s_closed sr = [] /\ s_next sr = 2 /\ s_quar sr = [0] /\ s_corrupted sr = 1).
Proof. vm_compute. repeat split. Qed.

(* two records in blob 0; the session ends WITHOUT close (no index file), the file is cut behind the first record:
   the second record is gone, the first is served. After close() the index file describes both records, which were
   synced before it was written: a crash does not lose them, the cut does not apply. *)
Definition x_hist_a (e : op) : list op :=
  [OOpen false; OWrite 1 7 None 8 5 1; OWrite 2 8 None 8 5 2; e; OCut 0 (Some 1%nat); OOpen false].
Example cut_boundary_computed :
  x_keys (reach 4 x_cfg (x_hist_a ODrop)) = [1] /\
  get_latest_entry (reach 4 x_cfg (x_hist_a ODrop)) 2 None = NotFound /\
  is_found (get_latest_entry (reach 4 x_cfg (x_hist_a ODrop)) 1 None) = true /\
  x_keys (reach 4 x_cfg (x_hist_a OClose)) = [1; 2].
Proof. vm_compute. repeat split. Qed.

(* why the cut never goes below the size an index file records: the same cut applied whatever the index file says *)
Definition raw_cut (id : N) (j : nat) (s : storage) : storage :=
  upd_closed s (map (fun o => match o with Some b => Some (if b_id b =? id then cut_recs j b else b) | None => None end)
                    (s_closed s)).

(* OUTSIDE THE CRASH MODEL: needs the loss of bytes that an index file describes, i.e. of synced bytes (Blob::dump syncs the
   blob before it writes the index). The mechanism: a regenerated index leaves the stale index file on disk, and a later
   size coincidence makes it trusted.
   Two records, close() (the index file of blob 0 records the size of both). The file is cut behind the first record
   all the same. Start: the size differs, the index is regenerated in memory -- the stale index FILE stays where it is
   (Blob::from_file never removes it, and the active blob is not dumped by the start). A third record of the same
   size is written and acknowledged; the session ends without close. Next start: the file has the recorded size again,
   the stale index file is trusted: the acknowledged record (key 3) is not found, the lost one (key 2) is. *)
Example cut_below_index_breaks_reads :
  let s1 := reach 4 x_cfg [OOpen false; OWrite 1 7 None 8 5 1; OWrite 2 8 None 8 5 2; OClose] in
  let s3 := fst (run 4 x_cfg (raw_cut 0 1 s1) [OOpen false; OWrite 3 9 None 8 5 3; ODrop; OOpen false]) in
  x_keys s3 = [1; 3] /\
  get_latest_entry s3 3 None = NotFound /\ spec_read (abs s3) 3 <> NotFound /\
  is_found (get_latest_entry s3 2 None) = true /\ spec_read (abs s3) 2 = NotFound.
Proof. vm_compute. repeat split. discriminate. Qed.

Print Assumptions cut_boundary_restart.
Print Assumptions cut_boundary_reads.
Print Assumptions cut_boundary_other_keys.
Print Assumptions cut_inside_quarantines.
Print Assumptions quarantined_ids_never_reused.
Print Assumptions quarantine_only_grows.
Print Assumptions quarantined_id_stays_unused.
Print Assumptions all_quarantined_eager.
Print Assumptions all_quarantined_lazy.
Print Assumptions all_quarantined_lazy_restart.
Print Assumptions quarantine_computed.
Print Assumptions all_quarantined_computed.
Print Assumptions cut_boundary_computed.
Print Assumptions cut_below_index_breaks_reads.
