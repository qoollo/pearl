(* Cancellation safety (C14): what holds of every state a dropped future of a public operation may leave
   (Cancel.v: cancel_outcomes). Every such state s' is compared with s0 = the state before, or that state with its
   active blob created, slot by slot (closed list, active blob): `shape R s0 s'` says that the blob in each slot of
   s' is R-related to the blob in that slot of s0, that s_next grew by at most one, and that s_alive, s_open and the
   quarantine fields are the same. What is claimed of s' (`safe`) follows from what R says of one blob. R is
   `stage_ok r` for a write or a delete (r the record or the marker), refined to `dstage` for the stages of
   Blob::delete, and `quiet` for close_active, create_active and restore_active. The completed write and delete are
   decomposed in the same way.
   BlobsOk K s is assumed because a delete or a restore, dropped or not, may load the index of a closed blob from
   its index file, which is the index of the records only when blob_ok holds; s_open s = true because the operations
   are those of a running session. Both hold of every `reach K cfg ops` that is open. *)
Require Import Pearl.Base.Prelude Pearl.Storage.Model Pearl.Storage.Spec Pearl.Storage.Inv Pearl.Storage.IndexProofs
               Pearl.Storage.ReadProofs Pearl.Storage.ReadAllProofs Pearl.Storage.InvProofs Pearl.Storage.NoHarmProofs
               Pearl.Storage.WorkerProofs Pearl.Storage.Theorems Pearl.Storage.Cancel.

Lemma gle_as_fold s k meta :
  get_latest_entry s k meta =
  fold_left (rr_latest r_ts) (rev (map (fun b => blob_get_latest (b_idx b) k meta) (blobs_in_order s))) NotFound.
Proof. rewrite get_latest_entry_newest_first, newest_first_rev, fold_left_map_rr, map_rev. reflexivity. Qed.

Definition isame (k : N) (b b' : blob) : Prop := imap_get (b_idx b') k = imap_get (b_idx b) k.

Definition bsame (k : N) (b b' : blob) : Prop := of_key k (b_recs b') = of_key k (b_recs b) /\ isame k b b'.

Lemma bsame_refl k b : bsame k b b.
Proof. split; reflexivity. Qed.

Definition rsame (k : N) (s s' : storage) : Prop :=
  forall meta, get_latest_entry s' k meta = get_latest_entry s k meta.

Definition keeps (k : N) (s s' : storage) : Prop := of_key k (abs s') = of_key k (abs s) /\ rsame k s s'.

Lemma rsame_refl k s : rsame k s s.
Proof. intros meta. reflexivity. Qed.

Lemma rsame_trans k s1 s2 s3 : rsame k s1 s2 -> rsame k s2 s3 -> rsame k s1 s3.
Proof. intros B1 B2 meta. rewrite B2. apply B1. Qed.

Lemma keeps_refl k s : keeps k s s.
Proof. split; [reflexivity|apply rsame_refl]. Qed.

Lemma keeps_trans k s1 s2 s3 : keeps k s1 s2 -> keeps k s2 s3 -> keeps k s1 s3.
Proof.
  intros [A1 B1] [A2 B2]. split; [rewrite A2; exact A1|]. apply (rsame_trans _ _ _ _ B1 B2).
Qed.

Lemma Forall2_of_key k l l' :
  Forall2 (bsame k) l l' -> of_key k (flat_map b_recs l') = of_key k (flat_map b_recs l).
Proof.
  induction 1 as [|b b' l l' Hb HF IH]; [reflexivity|].
  cbn [flat_map]. rewrite !of_key_app, IH, (proj1 Hb). reflexivity.
Qed.

Lemma rsame_Forall2 k s s' : Forall2 (isame k) (blobs_in_order s) (blobs_in_order s') -> rsame k s s'.
Proof.
  intros HF meta. rewrite !gle_as_fold. do 2 f_equal. symmetry. apply (Forall2_map_eq (isame k)) with (2 := HF).
  intros b b' Hb. symmetry. apply blob_get_latest_ext, Hb.
Qed.

Lemma keeps_Forall2 k s s' : Forall2 (bsame k) (blobs_in_order s) (blobs_in_order s') -> keeps k s s'.
Proof.
  intros HF. split.
  - unfold abs. apply Forall2_of_key, HF.
  - apply rsame_Forall2. apply (Forall2_impl (bsame k) (isame k)) with (2 := HF). intros b b' H. apply H.
Qed.

Lemma keeps_bio k s s' : blobs_in_order s' = blobs_in_order s -> keeps k s s'.
Proof. intros H. apply keeps_Forall2. rewrite H. apply Forall2_diag, bsame_refl. Qed.

Lemma keeps_ext k s s' : s_closed s' = s_closed s -> s_active s' = s_active s -> keeps k s s'.
Proof. intros Hc Ha. apply keeps_bio. rewrite !bio_eq, Hc, Ha. reflexivity. Qed.

Lemma keeps_ensure_active k s : keeps k s (ensure_active s).
Proof.
  split; [rewrite abs_ensure_active; reflexivity|]. intros meta.
  unfold ensure_active. destruct (s_active s) as [a|] eqn:E; [reflexivity|].
  unfold get_latest_entry. cbn [s_active new_blob b_idx]. rewrite E, blob_get_latest_nil. reflexivity.
Qed.

Lemma keeps_request_dump k s : keeps k s (request_dump s).
Proof. unfold request_dump. destruct (s_alive s); [apply keeps_ext; reflexivity|apply keeps_refl]. Qed.

(* What a marker merged into some of a list of answers can do to the merged answer. lv is the value that
   ReadResult::latest ("leftmost maximum") compares. *)
Definition lv (a : rr rec) : N := match rr_ts r_ts a with Some t => t + 1 | None => 0 end.

Lemma latest_cases (a b : rr rec) :
  (lv a < lv b /\ rr_latest r_ts a b = b) \/ (lv b <= lv a /\ rr_latest r_ts a b = a).
Proof.
  unfold rr_latest, lv. destruct (rr_ts r_ts a) as [ta|], (rr_ts r_ts b) as [tb|]; cbn [opt_gt].
  - destruct (N.ltb_spec ta tb); [left|right]; split; try reflexivity; lia.
  - right. split; [lia|reflexivity].
  - left. split; [lia|reflexivity].
  - right. split; [lia|reflexivity].
Qed.

Section Tri.
Variable D : rr rec.

(* a second D further right never wins: the first one is at least as new and comes earlier *)
Lemma latest_absorb (X : rr rec) : rr_latest r_ts (rr_latest r_ts D X) D = rr_latest r_ts D X.
Proof.
  destruct (latest_cases D X) as [[H E]|[H E]]; rewrite E.
  - destruct (latest_cases X D) as [[H' _]|[_ E']]; [lia|exact E'].
  - destruct (latest_cases D D) as [[H' _]|[_ E']]; [lia|exact E'].
Qed.

(* D merged into the newer answer only is absorbed or comes out in front; merged into both it comes out in front *)
Lemma latest_D_right (X x : rr rec) :
  rr_latest r_ts X (rr_latest r_ts D x) = rr_latest r_ts X x \/
  rr_latest r_ts X (rr_latest r_ts D x) = rr_latest r_ts D (rr_latest r_ts X x).
Proof.
  rewrite !rr_latest_assoc. destruct (latest_cases X D) as [[H E]|[H E]]; rewrite E; [right|left; reflexivity].
  destruct (latest_cases D X) as [[H' _]|[_ E']]; [lia|]. rewrite E'. reflexivity.
Qed.

Lemma latest_D_both (X x : rr rec) :
  rr_latest r_ts (rr_latest r_ts D X) (rr_latest r_ts D x) = rr_latest r_ts D (rr_latest r_ts X x).
Proof. rewrite (rr_latest_assoc (rr_latest r_ts D X) D x), latest_absorb. symmetry. apply rr_latest_assoc. Qed.

(* x: the answer of a blob before the delete; y: in the state left by the dropped delete; z: after the completed one *)
Inductive tri : rr rec -> rr rec -> rr rec -> Prop :=
| tri_none x : tri x x x                                               (* the delete does not touch the blob *)
| tri_later x : tri x x (rr_latest r_ts D x)                           (* not yet indexed *)
| tri_done x : tri x (rr_latest r_ts D x) (rr_latest r_ts D x).        (* indexed *)

Inductive Tri : list (rr rec) -> list (rr rec) -> list (rr rec) -> Prop :=
| Tri_nil : Tri [] [] []
| Tri_cons x y z xs ys zs : tri x y z -> Tri xs ys zs -> Tri (x :: xs) (y :: ys) (z :: zs).

Lemma Tri_app xs1 ys1 zs1 xs2 ys2 zs2 :
  Tri xs1 ys1 zs1 -> Tri xs2 ys2 zs2 -> Tri (xs1 ++ xs2) (ys1 ++ ys2) (zs1 ++ zs2).
Proof. induction 1 as [|x y z xs ys zs Ht HT IH]; intros H2; [exact H2|]. cbn [app]. constructor; [exact Ht|apply IH, H2]. Qed.

(* the storage's answer, from the answers of the blobs in creation order *)
Definition merged (l : list (rr rec)) : rr rec := fold_left (rr_latest r_ts) (rev l) NotFound.

Lemma merged_cons x l : merged (x :: l) = rr_latest r_ts (merged l) x.
Proof. unfold merged. cbn [rev]. rewrite fold_left_app. reflexivity. Qed.

Lemma Tri_merged xs ys zs :
  Tri xs ys zs ->
  (merged ys = merged xs \/ merged ys = merged zs) /\
  (merged zs = merged xs \/ merged zs = rr_latest r_ts D (merged xs)).
Proof.
  induction 1 as [|x y z xs ys zs Ht HT [IHy IHz]]; [split; left; reflexivity|].
  rewrite !merged_cons. set (X := merged xs) in *. set (Y := merged ys) in *. set (Z := merged zs) in *.
  clearbody X Y Z. split.
  - destruct Ht as [x|x|x].
    + destruct IHy as [-> | ->]; [left|right]; reflexivity.
    + destruct IHy as [-> | ->]; [left; reflexivity|].
      destruct IHz as [-> | ->]; [left; reflexivity|]. right.
      rewrite latest_D_both. symmetry. apply rr_latest_assoc.
    + destruct IHy as [-> | ->]; [|right; reflexivity].
      destruct IHz as [-> | ->]; [right; reflexivity|]. rewrite latest_D_both. apply latest_D_right.
  - destruct Ht as [x|x|x].
    + destruct IHz as [-> | ->]; [left; reflexivity|right]. symmetry. apply rr_latest_assoc.
    + destruct IHz as [-> | ->]; [apply latest_D_right|right; apply latest_D_both].
    + destruct IHz as [-> | ->]; [apply latest_D_right|right; apply latest_D_both].
Qed.

End Tri.

(* the answer of the blob with the marker indexed = the marker merged with the answer of the blob without it, the
   marker being `self` of ReadResult::latest: at equal timestamps the MARKER is the answer *)
Lemma bgl_push b mk meta :
  idx_ok b -> r_del mk = true ->
  blob_get_latest (imap_push (b_idx b) mk) (r_key mk) meta =
  rr_latest r_ts (Deleted (r_ts mk)) (blob_get_latest (b_idx b) (r_key mk) meta).
Proof.
  intros Hi Hd.
  (* the pushed index is the index of a blob with the marker as its last record; both answers are then read off
     the records *)
  pose (b' := mkBlob (b_id b) (b_recs b ++ [mk]) (imap_push (b_idx b) mk) false None).
  assert (Hi' : idx_ok b').
  { unfold idx_ok, b' in *. cbn [b_idx b_recs]. rewrite index_of_snoc, <- Hi. reflexivity. }
  assert (E : of_key (r_key mk) (b_recs b') = of_key (r_key mk) (b_recs b) ++ [mk]).
  { unfold b'. cbn [b_recs]. rewrite of_key_app, of_key_cons, N.eqb_refl. reflexivity. }
  change (imap_push (b_idx b) mk) with (b_idx b'). destruct meta as [m|].
  - rewrite !blob_get_with_meta_ok by assumption. unfold dkey, rkey. rewrite E, rev_unit.
    change (sort_desc (mk :: ?l)) with (ins_desc mk (sort_desc l)).
    rewrite scan_ins by apply sort_desc_sdesc. cbn [scan]. rewrite Hd. reflexivity.
  - rewrite !blob_latest_ok by assumption. unfold pb. rewrite E, top_ranked_app.
    assert (Em : to_rr (Some mk) = Deleted (r_ts mk)) by (cbn [to_rr]; rewrite Hd; reflexivity).
    rewrite <- Em, rr_latest_to_rr. reflexivity.
Qed.

Inductive orel (R : blob -> blob -> Prop) : option blob -> option blob -> Prop :=
| orel_none : orel R None None
| orel_some b b' : R b b' -> orel R (Some b) (Some b').

Lemma orel_refl (R : blob -> blob -> Prop) o : (forall b, R b b) -> orel R o o.
Proof. intros H. destruct o; constructor. apply H. Qed.

Lemma Forall2_orel_refl (R : blob -> blob -> Prop) l : (forall b, R b b) -> Forall2 (orel R) l l.
Proof. intros H. apply Forall2_diag. intros o. apply orel_refl, H. Qed.

Lemma orel_impl (R R' : blob -> blob -> Prop) : (forall b b', R b b' -> R' b b') -> forall o o', orel R o o' -> orel R' o o'.
Proof. intros HI o o' [|b b' Hb]; constructor. apply HI, Hb. Qed.

Record shape (R : blob -> blob -> Prop) (s s' : storage) : Prop := mk_shape {
  sh_closed : Forall2 (orel R) (s_closed s) (s_closed s');
  sh_active : orel R (s_active s) (s_active s');
  sh_next : s_next s' = s_next s \/ s_next s' = s_next s + 1;
  sh_alive : s_alive s' = s_alive s;
  sh_open : s_open s' = s_open s;
  sh_qf : qf s' = qf s
}.

Lemma cb_Forall2 (R : blob -> blob -> Prop) l l' : Forall2 (orel R) l l' -> Forall2 R (cb l) (cb l').
Proof.
  induction 1 as [|o o' l l' Ho HF IH]; [constructor|].
  destruct Ho as [|b b' Hb]; [rewrite !cb_cons_none; exact IH|].
  rewrite !cb_cons_some. constructor; [exact Hb|exact IH].
Qed.

Lemma shape_bio (R : blob -> blob -> Prop) s s' : shape R s s' -> Forall2 R (blobs_in_order s) (blobs_in_order s').
Proof.
  intros H. rewrite !bio_eq. apply Forall2_app; [apply cb_Forall2, (sh_closed _ _ _ H)|].
  destruct (sh_active _ _ _ H) as [|b b' Hb]; cbn [oa]; [constructor|]. constructor; [exact Hb|constructor].
Qed.

Lemma shape_impl (R R' : blob -> blob -> Prop) s s' :
  (forall b b', R b b' -> R' b b') -> shape R s s' -> shape R' s s'.
Proof.
  intros HI [Hc Ha Hn Hl Ho Hq]. constructor; try assumption.
  - apply (Forall2_impl _ _ _ _ (orel_impl R R' HI) Hc).
  - apply (orel_impl R R' HI _ _ Ha).
Qed.

Lemma shape_keeps (R : blob -> blob -> Prop) k s s' : (forall b b', R b b' -> bsame k b b') -> shape R s s' -> keeps k s s'.
Proof.
  intros HI H. apply keeps_Forall2, (Forall2_impl R (bsame k) _ _ HI (shape_bio _ _ _ H)).
Qed.

Lemma shape_good (R : blob -> blob -> Prop) s s' : (forall b b', R b b' -> bext b b') -> shape R s s' -> good s s'.
Proof.
  intros HI H. pose proof (Forall2_impl R bext _ _ HI (shape_bio _ _ _ H)) as HF.
  split; [apply Forall2_lext, HF|]. split; [destruct (sh_next _ _ _ H) as [E|E]; rewrite E; lia|].
  intros b' Hb'. left. apply (Forall2_bext_ids _ _ HF b' Hb').
Qed.

Lemma shape_aim (R : blob -> blob -> Prop) s s' :
  (forall b b', R b b' -> b_ondisk b = false -> b_ondisk b' = false) ->
  shape R s s' -> ActiveInMemory s -> ActiveInMemory s'.
Proof.
  intros HI H HA b' Hb'. pose proof (sh_active _ _ _ H) as Ha. rewrite Hb' in Ha.
  inversion Ha as [|b b0 Hb Eb E0]. subst b0. apply (HI b b' Hb). apply HA. symmetry. exact Eb.
Qed.

Lemma shape_ids (R : blob -> blob -> Prop) s s' : (forall b b', R b b' -> b_id b' = b_id b) -> shape R s s' -> IdsOk s -> IdsOk s'.
Proof.
  intros HI H HK. apply IdsOk_iff in HK. destruct HK as (Hinc & Hlt & H3 & H4 & H5 & H6).
  pose proof (Forall2_map_eq R b_id b_id _ _ (fun b b' Hb => eq_sym (HI b b' Hb)) (shape_bio _ _ _ H)) as E.
  fold (ids s') in E. fold (ids s) in E. destruct (qf_inv _ _ (sh_qf _ _ _ H)) as (Eq & Eb & Ec).
  apply IdsOk_iff. rewrite <- E, (sh_open _ _ _ H), Eq, Eb, Ec.
  split; [exact Hinc|]. split; [|split; [|split; [exact H4|split; [exact H5|exact H6]]]].
  - intros Ho i Hi. specialize (Hlt Ho i Hi). destruct (sh_next _ _ _ H) as [En|En]; rewrite En; lia.
  - intros Ho q Hq. specialize (H3 Ho q Hq). destruct (sh_next _ _ _ H) as [En|En]; rewrite En; lia.
Qed.

Lemma shape_upd_active (R : blob -> blob -> Prop) s b b' :
  (forall x, R x x) -> s_active s = Some b -> R b b' -> shape R s (upd_active s (Some b')).
Proof.
  intros Hr E Hb. constructor; cbn [upd_active s_closed s_active s_next s_alive s_open]; auto.
  - apply Forall2_orel_refl, Hr.
  - rewrite E. constructor. exact Hb.
Qed.

Lemma shape_burn_id (R : blob -> blob -> Prop) s : (forall x, R x x) -> shape R s (burn_id s).
Proof.
  intros Hr. constructor; cbn [burn_id s_closed s_active s_next s_alive s_open]; auto.
  - apply Forall2_orel_refl, Hr.
  - apply orel_refl, Hr.
Qed.

Lemma shape_refl (R : blob -> blob -> Prop) s : (forall x, R x x) -> shape R s s.
Proof. intros Hr. constructor; auto; [apply Forall2_orel_refl, Hr|apply orel_refl, Hr]. Qed.

Section K.
Variable K : N.
Variable cfg : config.

(* what any stage of an append of r (write: r = the record; delete: r = the marker) makes of a blob *)
Definition stage_ok (r : rec) (b b' : blob) : Prop :=
  b_id b' = b_id b /\
  (b_recs b' = b_recs b \/ b_recs b' = b_recs b ++ [r]) /\
  (b_idx b' = b_idx b \/ b_idx b' = imap_push (b_idx b) r) /\
  (b_ondisk b = false -> b_ondisk b' = false).

Lemma stage_ok_refl r b : stage_ok r b b.
Proof. repeat split; auto. Qed.

Lemma stage_ok_id r b b' : stage_ok r b b' -> b_id b' = b_id b.
Proof. intros H. apply H. Qed.

Lemma stage_ok_recs r b b' : stage_ok r b b' -> b_recs b' = b_recs b \/ b_recs b' = b_recs b ++ [r].
Proof. intros H. apply H. Qed.

Lemma stage_ok_idx r b b' : stage_ok r b b' -> b_idx b' = b_idx b \/ b_idx b' = imap_push (b_idx b) r.
Proof. intros H. apply H. Qed.

Lemma stage_ok_mem r b b' : stage_ok r b b' -> b_ondisk b = false -> b_ondisk b' = false.
Proof. intros H. apply H. Qed.

Lemma stage_ok_bext r b b' : stage_ok r b b' -> bext b b'.
Proof.
  intros H. destruct (stage_ok_recs r b b' H) as [Hr|Hr].
  - apply bext_same; [apply (stage_ok_id r b b' H)|exact Hr].
  - split; [apply (stage_ok_id r b b' H)|]. exists [r]. exact Hr.
Qed.

Lemma stage_ok_bsame r k b b' : r_key r <> k -> stage_ok r b b' -> bsame k b b'.
Proof.
  intros Hk H. split.
  - destruct (stage_ok_recs r b b' H) as [->| ->]; [reflexivity|]. rewrite of_key_app, of_key_other by exact Hk. apply app_nil_r.
  - unfold isame. destruct (stage_ok_idx r b b' H) as [->| ->]; [reflexivity|]. rewrite imap_get_push.
    destruct (N.eqb_spec (r_key r) k); [contradiction|reflexivity].
Qed.

(* loading the index of a blob whose index file is trusted only when it describes the whole blob *)
Lemma load_index_idx b : blob_ok K b -> b_idx (blob_load_index K b) = b_idx b.
Proof.
  intros [Hi Hf]. unfold blob_load_index. destruct (b_ondisk b); [|reflexivity]. cbn [b_idx].
  destruct (b_idxfile b) as [[sz m]|] eqn:E; [|symmetry; exact Hi].
  destruct (N.eqb_spec sz (blob_size K b)) as [Hs|_]; [|symmetry; exact Hi].
  rewrite (idxfile_full K b sz m Hf E Hs). symmetry. exact Hi.
Qed.

(* nothing but the place of the index (disk -> memory) changes *)
Record quiet (b b' : blob) : Prop := mk_quiet {
  q_id : b_id b' = b_id b;
  q_recs : b_recs b' = b_recs b;
  q_idx : b_idx b' = b_idx b;
  q_idxfile : b_idxfile b' = b_idxfile b;
  q_mem : b_ondisk b = false -> b_ondisk b' = false
}.

Lemma quiet_refl b : quiet b b.
Proof. constructor; auto. Qed.

Lemma quiet_bsame k b b' : quiet b b' -> bsame k b b'.
Proof.
  intros H. split; [rewrite (q_recs _ _ H); reflexivity|]. unfold isame. rewrite (q_idx _ _ H). reflexivity.
Qed.

Lemma quiet_load b : blob_ok K b -> quiet b (blob_load_index K b).
Proof.
  intros Hb. constructor.
  - apply blob_load_index_id.
  - apply blob_load_index_recs.
  - apply load_index_idx, Hb.
  - unfold blob_load_index. destruct (b_ondisk b); reflexivity.
  - intros _. apply blob_load_index_mem.
Qed.

Lemma quiet_then_stage r b b1 : quiet b b1 -> forall b', stage_ok r b1 b' -> stage_ok r b b'.
Proof.
  intros Q b' H. unfold stage_ok. rewrite <- (q_id _ _ Q), <- (q_recs _ _ Q), <- (q_idx _ _ Q).
  split; [apply (stage_ok_id _ _ _ H)|]. split; [apply (stage_ok_recs _ _ _ H)|]. split; [apply (stage_ok_idx _ _ _ H)|].
  intros Hm. apply (stage_ok_mem _ _ _ H), (q_mem _ _ Q), Hm.
Qed.

Lemma unindexed_ok r b : stage_ok r b (append_unindexed b r).
Proof. repeat split; cbn [append_unindexed b_id b_recs b_idx b_ondisk]; auto. Qed.

Lemma append_ok r b : stage_ok r b (fst (blob_append b r)).
Proof.
  unfold stage_ok, blob_append. destruct (b_ondisk b) eqn:E; cbn [fst b_id b_recs b_idx b_ondisk].
  - split; [reflexivity|]. split; [right; reflexivity|]. split; [left; reflexivity|]. intros H. discriminate H.
  - split; [reflexivity|]. split; [right; reflexivity|]. split; [right; reflexivity|]. intros _. reflexivity.
Qed.

Lemma delete_stage_ok mk b b' : blob_ok K b -> delete_stage K mk b b' -> stage_ok mk b b'.
Proof.
  intros Hb H. pose proof (quiet_then_stage mk b _ (quiet_load b Hb)) as Q. destruct H.
  - apply stage_ok_refl.
  - apply Q, stage_ok_refl.
  - apply Q, unindexed_ok.
  - apply Q, append_ok.
Qed.

(* the completed Blob::delete is the last stage (or nothing, when the blob does not hold the key) *)
Lemma blob_delete_stage b mk oip :
  fst (fst (blob_delete K b mk oip)) = if delete_applies b mk oip then fst (blob_append (blob_load_index K b) mk) else b.
Proof.
  unfold blob_delete, delete_applies, is_found.
  destruct (negb oip || match idx_get_latest (b_idx b) (r_key mk) with Found _ => true | _ => false end); [|reflexivity].
  destruct (blob_append (blob_load_index K b) mk); reflexivity.
Qed.

Lemma blob_delete_slot b mk : slot_stage K mk (Some b) (Some (fst (fst (blob_delete K b mk true)))).
Proof.
  rewrite blob_delete_stage. destruct (delete_applies b mk true) eqn:A; [|apply ss_skip, A].
  apply ss_stage; [exact A|apply ds_done].
Qed.

(* a stage of Blob::delete, remembering that a marker is written only where Blob::delete applies *)
Definition dstage (mk : rec) (oip : bool) (b b' : blob) : Prop :=
  stage_ok mk b b' /\ (delete_applies b mk oip = true \/ (b_recs b' = b_recs b /\ b_idx b' = b_idx b)).

Lemma dstage_refl mk oip b : dstage mk oip b b.
Proof. split; [apply stage_ok_refl|right; split; reflexivity]. Qed.

Lemma dstage_ok mk oip b b' : dstage mk oip b b' -> stage_ok mk b b'.
Proof. intros H. apply H. Qed.

Lemma delete_stage_d mk oip b b' :
  blob_ok K b -> delete_applies b mk oip = true -> delete_stage K mk b b' -> dstage mk oip b b'.
Proof. intros Hb Ha Hs. split; [apply delete_stage_ok; assumption|left; exact Ha]. Qed.

Lemma blob_delete_d b mk oip : blob_ok K b -> dstage mk oip b (fst (fst (blob_delete K b mk oip))).
Proof.
  intros Hb. rewrite blob_delete_stage. destruct (delete_applies b mk oip) eqn:A; [|apply dstage_refl].
  apply delete_stage_d; [exact Hb|exact A|apply ds_done].
Qed.

Lemma blob_delete_ok b mk oip : blob_ok K b -> stage_ok mk b (fst (fst (blob_delete K b mk oip))).
Proof. intros Hb. apply (dstage_ok mk oip), blob_delete_d, Hb. Qed.

Lemma slots_stage_d mk l l' :
  (forall b, In (Some b) l -> blob_ok K b) -> Forall2 (slot_stage K mk) l l' -> Forall2 (orel (dstage mk true)) l l'.
Proof.
  intros Hb HF. induction HF as [|o o' l l' Ho HF IH]; constructor.
  - destruct Ho as [|b Hn|b b' Ha Hs]; constructor; [apply dstage_refl|].
    apply delete_stage_d; [apply Hb; left; reflexivity|exact Ha|exact Hs].
  - apply IH. intros b Hin. apply Hb. right. exact Hin.
Qed.

Lemma dstage_weaken mk oip b b' : dstage mk true b b' -> dstage mk oip b b'.
Proof.
  intros [H Ha]. split; [exact H|]. destruct Ha as [Ha|Ha]; [left|right; exact Ha].
  destruct oip; [exact Ha|reflexivity].
Qed.

(* a state of a delete: the active blob at a stage of Blob::delete(only_if_presented = oip), the closed slots at a
   stage of Blob::delete(only_if_presented = true), which is also one of the former *)
Definition dshape (mk : rec) (oip : bool) (s s' : storage) : Prop :=
  shape (dstage mk oip) s s' /\ Forall2 (orel (dstage mk true)) (s_closed s) (s_closed s').

Lemma dshape_shape mk oip s s' : dshape mk oip s s' -> shape (stage_ok mk) s s'.
Proof. intros [H _]. revert H. apply shape_impl, dstage_ok. Qed.

Lemma dshape_refl mk oip s : dshape mk oip s s.
Proof. split; [apply shape_refl, dstage_refl|apply Forall2_orel_refl, dstage_refl]. Qed.

(* P : the keys that must not be affected *)
Record safe (P : N -> Prop) (s s' : storage) : Prop := mk_safe {
  safe_keeps : forall k, P k -> keeps k s s';
  safe_good : good s s';
  safe_aim : ActiveInMemory s -> ActiveInMemory s';
  safe_alive : s_alive s' = s_alive s;
  safe_ids : IdsOk s -> IdsOk s';
  safe_open : s_open s' = s_open s
}.

Lemma safe_trans P s1 s2 s3 : safe P s1 s2 -> safe P s2 s3 -> safe P s1 s3.
Proof.
  intros H1 H2. constructor.
  - intros k Hk. apply (keeps_trans _ _ _ _ (safe_keeps _ _ _ H1 k Hk) (safe_keeps _ _ _ H2 k Hk)).
  - apply (good_trans _ _ _ (safe_good _ _ _ H1) (safe_good _ _ _ H2)).
  - intros HA. apply (safe_aim _ _ _ H2), (safe_aim _ _ _ H1), HA.
  - rewrite (safe_alive _ _ _ H2). apply (safe_alive _ _ _ H1).
  - intros HI. apply (safe_ids _ _ _ H2), (safe_ids _ _ _ H1), HI.
  - rewrite (safe_open _ _ _ H2). apply (safe_open _ _ _ H1).
Qed.

Lemma safe_later P s s' : safe P s s' -> s_open s = true ->
  (ActiveInMemory s -> ActiveInMemory s') /\ s_alive s' = s_alive s /\ (IdsOk s -> IdsOk s') /\ s_open s' = true.
Proof.
  intros H Ho. split; [apply (safe_aim _ _ _ H)|]. split; [apply (safe_alive _ _ _ H)|].
  split; [apply (safe_ids _ _ _ H)|]. rewrite (safe_open _ _ _ H). exact Ho.
Qed.

(* what `safe` needs of the relation between the two blobs of a slot *)
Lemma shape_safe (R : blob -> blob -> Prop) (P : N -> Prop) s s' :
  (forall k b b', P k -> R b b' -> bsame k b b') -> (forall b b', R b b' -> bext b b') ->
  (forall b b', R b b' -> b_ondisk b = false -> b_ondisk b' = false) -> (forall b b', R b b' -> b_id b' = b_id b) ->
  shape R s s' -> safe P s s'.
Proof.
  intros Hs He Hm Hi H. constructor.
  - intros k Hk. apply (shape_keeps R); [intros b b'; apply Hs, Hk|exact H].
  - apply (shape_good R); assumption.
  - apply (shape_aim R); assumption.
  - apply (sh_alive _ _ _ H).
  - apply (shape_ids R); assumption.
  - apply (sh_open _ _ _ H).
Qed.

Lemma safe_shape r (P : N -> Prop) s s' : (forall k, P k -> r_key r <> k) -> shape (stage_ok r) s s' -> safe P s s'.
Proof.
  intros HP. apply shape_safe; [|apply stage_ok_bext|apply stage_ok_mem|apply stage_ok_id].
  intros k b b' Hk. apply stage_ok_bsame, HP, Hk.
Qed.

Lemma safe_quiet P s s' : shape quiet s s' -> safe P s s'.
Proof.
  apply shape_safe; [intros k b b' _; apply quiet_bsame| |apply q_mem|apply q_id].
  intros b b' H. apply bext_same; [apply (q_id _ _ H)|apply (q_recs _ _ H)].
Qed.

Lemma safe_ensure_active P s : s_open s = true -> safe P s (ensure_active s).
Proof.
  intros Ho. constructor.
  - intros k _. apply keeps_ensure_active.
  - apply good_ensure_active.
  - apply aim_ensure_active.
  - apply (frame_alive _ _ (frame_ensure_active s)).
  - intros H. apply IdsOkS_IdsOk, IdsOkS_ensure_active, IdsOk_IdsOkS; assumption.
  - apply (frame_open _ _ (frame_ensure_active s)).
Qed.

Definition same_blobs (s s' : storage) : Prop :=
  s_closed s' = s_closed s /\ s_active s' = s_active s /\ s_next s' = s_next s /\
  s_alive s' = s_alive s /\ s_open s' = s_open s /\ qf s' = qf s.

Lemma shape_same (R : blob -> blob -> Prop) s s1 s2 : shape R s s1 -> same_blobs s1 s2 -> shape R s s2.
Proof.
  intros [Hc Ha Hn Hl Ho Hq] (E1 & E2 & E3 & E4 & E5 & E6). constructor; rewrite ?E1, ?E2, ?E3, ?E4, ?E5, ?E6; assumption.
Qed.

Lemma dshape_same mk oip s s1 s2 : dshape mk oip s s1 -> same_blobs s1 s2 -> dshape mk oip s s2.
Proof. intros [H Hc] HS. split; [apply (shape_same _ _ _ _ H HS)|]. rewrite (proj1 HS). exact Hc. Qed.

Lemma same_blobs_refl s : same_blobs s s.
Proof. repeat split. Qed.

Lemma same_blobs_request_dump s : same_blobs s (request_dump s).
Proof. unfold request_dump. destruct (s_alive s); repeat split. Qed.

Lemma keeps_close_active k s : keeps k s (fst (close_active s)).
Proof.
  unfold close_active. destruct (s_active s) as [a|] eqn:E; cbn [fst]; [|apply keeps_refl].
  apply keeps_bio. rewrite !bio_eq, E.
  cbn [push_closed upd_closed upd_active s_closed s_active oa]. rewrite cb_app, app_nil_r. reflexivity.
Qed.

Lemma keeps_maybe_rotate k s : keeps k s (maybe_rotate K cfg s).
Proof.
  destruct (maybe_rotate_cases K cfg s) as [->| ->]; [apply keeps_refl|]. rewrite replace_active_eq.
  apply (keeps_trans _ _ _ _ (keeps_close_active k s)), (keeps_trans _ _ _ _ (keeps_ensure_active k _)), keeps_request_dump.
Qed.

Lemma keeps_restore_active k s : BlobsOk K s -> keeps k s (fst (restore_active K s)).
Proof.
  intros HB. unfold restore_active. destruct (s_active s) as [a|] eqn:E; cbn [fst]; [apply keeps_refl|].
  destruct (pop_last (s_closed s)) as [[b c]|] eqn:P; cbn [fst]; [|apply keeps_refl].
  apply keeps_Forall2. rewrite !bio_eq, E. cbn [upd_closed upd_active s_closed s_active oa].
  rewrite (pop_last_cb _ _ _ P), app_nil_r.
  apply Forall2_app; [apply Forall2_diag, bsame_refl|]. constructor; [|constructor].
  apply quiet_bsame, quiet_load. apply (proj1 HB). exact (proj1 (pop_last_in _ _ _ P)).
Qed.

(* the completed write, slot by slot, before the rotation request *)
Lemma do_write_shape s k ts meta msize dlen dseed :
  let r := mk_rec k ts false meta msize dlen dseed in
  exists s2, shape (stage_ok r) (ensure_active s) s2 /\
             (abs s2 = abs (ensure_active s) \/ abs s2 = abs (ensure_active s) ++ [r]) /\
             (fst (do_write K cfg s k ts meta msize dlen dseed) = maybe_rotate K cfg s2 \/
              same_blobs s2 (fst (do_write K cfg s k ts meta msize dlen dseed))).
Proof.
  intros r. destruct (do_write_cases K cfg s k ts meta msize dlen dseed) as [E|(a & b' & ok & EA & A & E)]; rewrite E.
  { exists (ensure_active s). split; [apply shape_refl, stage_ok_refl|].
    split; [left; reflexivity|right; apply same_blobs_refl]. }
  fold r in A. pose proof (append_ok r a) as Hb. pose proof (blob_append_recs a r) as Hr.
  rewrite A in Hb, Hr. cbn [fst] in Hb, Hr.
  exists (upd_active (ensure_active s) (Some b')).
  split; [apply (shape_upd_active _ _ a b'); [apply stage_ok_refl|exact EA|exact Hb]|].
  split.
  - right. rewrite !abs_eq, EA. cbn [upd_active s_closed s_active]. rewrite Hr, app_assoc. reflexivity.
  - destruct ok; cbn [fst]; [left; reflexivity|right; repeat split].
Qed.

Lemma keeps_do_write s k ts meta msize dlen dseed k' :
  k <> k' -> keeps k' s (fst (do_write K cfg s k ts meta msize dlen dseed)).
Proof.
  intros Hk. destruct (do_write_shape s k ts meta msize dlen dseed) as (s2 & Hs & _ & Hd).
  apply (keeps_trans _ _ _ _ (keeps_ensure_active k' s)).
  assert (H2 : keeps k' (ensure_active s) s2).
  { apply (shape_keeps (stage_ok (mk_rec k ts false meta msize dlen dseed))); [|exact Hs].
    intros b b'. apply stage_ok_bsame. exact Hk. }
  apply (keeps_trans _ _ _ _ H2). destruct Hd as [-> | (E1 & E2 & _)]; [apply keeps_maybe_rotate|].
  apply keeps_ext; assumption.
Qed.

Lemma delete_active_done_active s0 mk oip :
  s_active (delete_active_done K s0 mk oip) = option_map (fun b => fst (fst (blob_delete K b mk oip))) (s_active s0).
Proof. unfold delete_active_done. destruct (s_active s0) as [a|] eqn:EA; [reflexivity|exact EA]. Qed.

(* the completed delete, slot by slot: an instance of dp_closed, plus the dump request *)
Lemma do_delete_same s k ts meta msize oip :
  let mk := mk_rec k ts true meta msize 0 0 in
  let s0 := delete_start s oip in
  same_blobs (upd_closed (delete_active_done K s0 mk oip)
                         (map (option_map (fun b => fst (fst (blob_delete K b mk true)))) (s_closed s0)))
             (fst (do_delete K s k ts meta msize oip)).
Proof.
  cbv zeta. unfold delete_start.
  destruct (do_delete_cases K s k ts meta msize oip) as (s1 & n & Hs1 & E).
  set (s0 := if oip then s else ensure_active s) in *. set (mk := mk_rec k ts true meta msize 0 0) in *.
  assert (E1 : delete_active_done K s0 mk oip = s1).
  { unfold delete_active_done. destruct Hs1 as [[EA ->]|(a & EA & ->)]; rewrite EA; reflexivity. }
  assert (Ec : s_closed s1 = s_closed s0) by (destruct Hs1 as [[_ ->]|(a & _ & ->)]; reflexivity).
  rewrite E1, <- Ec, <- delete_in_closed_map. destruct E as [E|E]; rewrite E; cbn [fst]; [repeat split|].
  destruct (request_dump_cases (upd_f2 (upd_closed s1 (fst (fst (delete_in_closed K (s_closed s1) mk)))) false))
    as [->| ->]; repeat split.
Qed.

Lemma do_delete_decomp s k ts meta msize oip :
  let mk := mk_rec k ts true meta msize 0 0 in
  exists c', Forall2 (slot_stage K mk) (s_closed (delete_start s oip)) c' /\
             same_blobs (upd_closed (delete_active_done K (delete_start s oip) mk oip) c')
                        (fst (do_delete K s k ts meta msize oip)).
Proof.
  intros mk. exists (map (option_map (fun b => fst (fst (blob_delete K b mk true)))) (s_closed (delete_start s oip))).
  split; [|apply do_delete_same]. apply Forall2_map_r. intros [b|]; [apply blob_delete_slot|apply ss_vacant].
Qed.

Lemma do_delete_slots s k ts meta msize oip :
  let mk := mk_rec k ts true meta msize 0 0 in
  s_closed (fst (do_delete K s k ts meta msize oip)) =
    map (option_map (fun b => fst (fst (blob_delete K b mk true)))) (s_closed (delete_start s oip)) /\
  s_active (fst (do_delete K s k ts meta msize oip)) =
    option_map (fun b => fst (fst (blob_delete K b mk oip))) (s_active (delete_start s oip)).
Proof.
  intros mk. destruct (do_delete_same s k ts meta msize oip) as (E1 & E2 & _). fold mk in E1, E2.
  rewrite E1, E2. cbn [upd_closed s_closed s_active]. split; [reflexivity|apply delete_active_done_active].
Qed.

Lemma BlobsOk_delete_start s oip : BlobsOk K s -> BlobsOk K (delete_start s oip).
Proof. intros H. unfold delete_start. destruct oip; [exact H|apply BlobsOk_ensure_active, H]. Qed.

(* every state of the loop over the closed blobs, the active blob being done *)
Lemma dshape_dp_closed s0 mk oip c' :
  BlobsOk K s0 -> Forall2 (slot_stage K mk) (s_closed s0) c' ->
  dshape mk oip s0 (upd_closed (delete_active_done K s0 mk oip) c').
Proof.
  intros [HBc HBa] HF. pose proof (slots_stage_d mk _ _ HBc HF) as Hc.
  pose proof (Forall2_impl _ _ _ _ (orel_impl _ _ (dstage_weaken mk oip)) Hc) as Hw.
  unfold delete_active_done. destruct (s_active s0) as [a|] eqn:EA.
  - split; [|exact Hc]. constructor; cbn [upd_closed upd_active s_closed s_active s_next s_alive s_open]; auto.
    rewrite EA. constructor. apply blob_delete_d, HBa. reflexivity.
  - split; [|exact Hc]. constructor; cbn [upd_closed s_closed s_active]; auto. rewrite EA. constructor.
Qed.

Lemma do_delete_dshape s k ts meta msize oip :
  BlobsOk K s ->
  dshape (mk_rec k ts true meta msize 0 0) oip (delete_start s oip) (fst (do_delete K s k ts meta msize oip)).
Proof.
  intros HB. destruct (do_delete_decomp s k ts meta msize oip) as (c' & HF & HS).
  apply (dshape_same _ _ _ _ _ (dshape_dp_closed _ _ oip c' (BlobsOk_delete_start s oip HB) HF) HS).
Qed.

Lemma keeps_delete_start k s oip : keeps k s (delete_start s oip).
Proof. unfold delete_start. destruct oip; [apply keeps_refl|apply keeps_ensure_active]. Qed.

Lemma keeps_do_delete s k ts meta msize oip k' :
  BlobsOk K s -> k <> k' -> keeps k' s (fst (do_delete K s k ts meta msize oip)).
Proof.
  intros HB Hk. apply (keeps_trans _ _ _ _ (keeps_delete_start k' s oip)).
  apply (shape_keeps (stage_ok (mk_rec k ts true meta msize 0 0))); [|apply (dshape_shape _ oip), do_delete_dshape, HB].
  intros b b'. apply stage_ok_bsame. exact Hk.
Qed.

Lemma keeps_step s o k :
  public_op o = true -> s_open s = true -> BlobsOk K s -> op_key o <> Some k ->
  keeps k s (fst (step K cfg s o)).
Proof.
  intros Hp Ho HB Hk. rewrite (step_open K cfg s o Ho).
  destruct o; try discriminate Hp; cbn [fst]; try apply keeps_refl.
  - apply keeps_do_write. intros ->. apply Hk. reflexivity.
  - apply keeps_do_delete; [exact HB|]. intros ->. apply Hk. reflexivity.
  - pose proof (keeps_close_active k s) as H1. destruct (close_active s) as [s' e]. cbn [fst] in *.
    apply (keeps_trans _ _ _ _ H1), keeps_request_dump.
  - pose proof (keeps_ensure_active k s) as H1. rewrite <- create_active_fst in H1.
    destruct (create_active s) as [s' e]. exact H1.
  - pose proof (keeps_restore_active k s HB) as H1. destruct (restore_active K s) as [s' e]. exact H1.
Qed.

Lemma frame_public s o : public_op o = true -> s_open s = true -> frame (fst (step K cfg s o)) = frame s.
Proof. intros Hp Ho. apply frame_session; [exact Ho| |]; intros ->; discriminate Hp. Qed.

Lemma safe_step s o :
  public_op o = true -> s_open s = true -> BlobsOk K s ->
  safe (fun k => op_key o <> Some k) s (fst (step K cfg s o)).
Proof.
  intros Hp Ho HB. constructor.
  - intros k Hk. apply keeps_step; assumption.
  - apply step_good; intros; exact Ho.
  - apply step_ActiveInMemory.
  - apply frame_alive, frame_public; assumption.
  - apply step_IdsOk.
  - apply frame_open, frame_public; assumption.
Qed.

Lemma via_safe o r s s0 s' :
  op_key o = Some (r_key r) -> s_open s = true -> s0 = s \/ s0 = ensure_active s -> shape (stage_ok r) s0 s' ->
  safe (fun k => op_key o <> Some k) s s'.
Proof.
  intros Hk Ho H0 H.
  assert (HP : forall k, op_key o <> Some k -> r_key r <> k).
  { intros k Hn E. apply Hn. rewrite Hk, E. reflexivity. }
  destruct H0 as [-> | ->]; [apply (safe_shape r); assumption|].
  apply (safe_trans _ _ (ensure_active s)); [apply safe_ensure_active, Ho|apply (safe_shape r); assumption].
Qed.

Lemma mlo_Forall2 (R : blob -> blob -> Prop) f l :
  (forall b, R b b) -> (forall b, In (Some b) l -> R b (f b)) -> Forall2 (orel R) l (map_last_occupied f l).
Proof.
  intros Hr. induction l as [|x l IH]; intros Hf; cbn [map_last_occupied]; [constructor|].
  destruct (pop_last l) as [p|].
  - constructor; [apply orel_refl, Hr|]. apply IH. intros b Hb. apply Hf. right. exact Hb.
  - destruct x as [b|]; (constructor; [|apply Forall2_orel_refl, Hr]); constructor.
    apply Hf. left. reflexivity.
Qed.

(* the index of no blob has changed *)
Definition unidx (r : rec) (b b' : blob) : Prop := stage_ok r b b' /\ b_idx b' = b_idx b.

Lemma unidx_refl r b : unidx r b b.
Proof. split; [apply stage_ok_refl|reflexivity]. Qed.

Lemma write_partial_via s k meta r s' :
  write_partial cfg s k meta r s' ->
  exists s0, (s0 = s \/ s0 = ensure_active s) /\ shape (unidx r) s0 s' /\
             (abs s' = abs s0 \/ abs s' = abs s0 ++ [r]).
Proof.
  intros [Hn | | Hd].
  - exists s. split; [left; reflexivity|]. split; [apply shape_burn_id, unidx_refl|left; reflexivity].
  - exists (ensure_active s). split; [right; reflexivity|]. split; [apply shape_refl, unidx_refl|left; reflexivity].
  - exists (ensure_active s). split; [right; reflexivity|].
    destruct (ensure_active_some s) as [a Ea]. unfold cancel_write_midway. rewrite Ea. split.
    + apply (shape_upd_active _ _ a); [apply unidx_refl|exact Ea|]. split; [apply unindexed_ok|reflexivity].
    + right. rewrite !abs_eq, Ea. cbn [upd_active s_closed s_active append_unindexed b_recs].
      rewrite app_assoc. reflexivity.
Qed.

Lemma delete_start_cases s oip :
  delete_start s oip = s \/ (oip = false /\ delete_start s oip = ensure_active s).
Proof. destruct oip; [left; reflexivity|right; split; reflexivity]. Qed.

(* a delete dropped midway: the id of a blob that was being created is consumed, or the state is, slot by slot,
   the state in which the delete started its work (the active blob exists) at some stage of Blob::delete *)
Lemma delete_partial_cases s mk oip s' :
  BlobsOk K s -> delete_partial K s mk oip s' ->
  s' = burn_id s \/ dshape mk oip (delete_start s oip) s'.
Proof.
  intros HB [Hoip Hn | | b b' Ea Happ Hst | c' HF]; [left; reflexivity|right..].
  - apply dshape_refl.
  - pose proof (BlobsOk_delete_start s oip HB) as [_ HBa].
    split; [|apply Forall2_orel_refl, dstage_refl]. apply (shape_upd_active _ _ b); [apply dstage_refl|exact Ea|].
    apply delete_stage_d; [apply HBa, Ea|exact Happ|exact Hst].
  - apply dshape_dp_closed; [apply BlobsOk_delete_start, HB|exact HF].
Qed.

Lemma delete_partial_via s mk oip s' :
  BlobsOk K s -> delete_partial K s mk oip s' ->
  exists s0, (s0 = s \/ (oip = false /\ s0 = ensure_active s)) /\ dshape mk oip s0 s'.
Proof.
  intros HB H. destruct (delete_partial_cases s mk oip s' HB H) as [-> | Hd].
  - exists s. split; [left; reflexivity|]. split; [apply shape_burn_id, dstage_refl|apply Forall2_orel_refl, dstage_refl].
  - exists (delete_start s oip). split; [apply delete_start_cases|exact Hd].
Qed.

Lemma restore_partial_quiet s s' : BlobsOk K s -> restore_partial K s s' -> shape quiet s s'.
Proof.
  intros [HBc _] [Hn]. constructor; cbn [upd_closed s_closed s_active s_next s_alive s_open]; auto.
  - apply mlo_Forall2; [apply quiet_refl|]. intros b Hb. apply quiet_load, HBc, Hb.
  - apply orel_refl, quiet_refl.
Qed.

Lemma create_partial_quiet s s' : create_partial s s' -> shape quiet s s'.
Proof. intros [Hn]. apply shape_burn_id, quiet_refl. Qed.

Theorem cancel_outcomes_safe s o s' :
  BlobsOk K s -> s_open s = true -> cancel_outcomes K cfg s o s' ->
  safe (fun k => op_key o <> Some k) s s'.
Proof.
  intros HB Ho [Hp [-> | [-> | [_ Hpar]]]].
  - apply safe_quiet, shape_refl, quiet_refl.
  - apply safe_step; assumption.
  - destruct o; cbn [partial_outcomes] in Hpar; try contradiction.
    + destruct (write_partial_via _ _ _ _ _ Hpar) as (s0 & H0 & Hs & _).
      apply (via_safe _ (mk_rec k ts false meta msize dlen dseed) s s0); [reflexivity|exact Ho|exact H0|].
      apply (shape_impl (unidx (mk_rec k ts false meta msize dlen dseed))) with (2 := Hs). intros b b' H. apply H.
    + destruct (delete_partial_via _ _ _ _ HB Hpar) as (s0 & H0 & Hs).
      apply (via_safe _ (mk_rec k ts true meta msize 0 0) s s0); [reflexivity|exact Ho| |apply (dshape_shape _ oip), Hs].
      destruct H0 as [H0|[_ H0]]; [left|right]; exact H0.
    + apply safe_quiet, create_partial_quiet, Hpar.
    + apply safe_quiet, restore_partial_quiet; assumption.
Qed.

Theorem cancel_other_keys s o s' k :
  BlobsOk K s -> s_open s = true -> cancel_outcomes K cfg s o s' -> op_key o <> Some k ->
  of_key k (abs s') = of_key k (abs s) /\
  forall meta, get_latest_entry s' k meta = get_latest_entry s k meta.
Proof. intros HB Ho Hc. exact (safe_keeps _ _ _ (cancel_outcomes_safe s o s' HB Ho Hc) k). Qed.

Theorem cancel_no_harm s o s' :
  BlobsOk K s -> s_open s = true -> cancel_outcomes K cfg s o s' -> good s s'.
Proof. intros HB Ho Hc. apply (safe_good _ _ _ (cancel_outcomes_safe s o s' HB Ho Hc)). Qed.

Theorem cancel_later_ops s o s' :
  BlobsOk K s -> s_open s = true -> cancel_outcomes K cfg s o s' ->
  (ActiveInMemory s -> ActiveInMemory s') /\ s_alive s' = s_alive s /\ (IdsOk s -> IdsOk s') /\ s_open s' = true.
Proof.
  intros HB Ho Hc. apply (safe_later (fun k => op_key o <> Some k) s s'); [apply cancel_outcomes_safe|]; assumption.
Qed.

Theorem cancel_then_no_index_error s o s' o2 :
  BlobsOk K s -> ActiveInMemory s -> s_open s = true -> cancel_outcomes K cfg s o s' ->
  snd (step K cfg s' o2) <> RErr EIndex.
Proof.
  intros HB HA Ho Hc. apply step_no_index_error. apply (cancel_later_ops s o s' HB Ho Hc), HA.
Qed.

Theorem cancel_then_write_acknowledged s o s' k ts meta msize dlen dseed :
  BlobsOk K s -> ActiveInMemory s -> s_open s = true -> cancel_outcomes K cfg s o s' ->
  snd (step K cfg s' (OWrite k ts meta msize dlen dseed)) = RUnit.
Proof.
  intros HB HA Ho Hc. destruct (cancel_later_ops s o s' HB Ho Hc) as (C & _ & _ & F).
  rewrite (step_open K cfg s' _ F). apply do_write_ack, C, HA.
Qed.

Lemma abs_maybe_rotate s : abs (maybe_rotate K cfg s) = abs s.
Proof.
  destruct (maybe_rotate_cases K cfg s) as [->| ->]; [reflexivity|]. rewrite abs_request_dump. apply abs_replace_active.
Qed.

Theorem cancelled_write_log s k ts meta msize dlen dseed s' :
  s_open s = true -> cancel_outcomes K cfg s (OWrite k ts meta msize dlen dseed) s' ->
  abs s' = abs s \/ abs s' = abs s ++ [mk_rec k ts false meta msize dlen dseed].
Proof.
  intros Ho [_ [-> | [-> | [_ Hpar]]]].
  - left. reflexivity.
  - rewrite (step_open K cfg s _ Ho). cbn [fst].
    destruct (do_write_shape s k ts meta msize dlen dseed) as (s2 & _ & Habs & Hd).
    rewrite abs_ensure_active in Habs.
    destruct Hd as [-> | (E1 & E2 & _)]; [rewrite abs_maybe_rotate|rewrite (abs_ext _ _ E1 E2)]; exact Habs.
  - cbn [partial_outcomes] in Hpar. destruct (write_partial_via _ _ _ _ _ Hpar) as (s0 & H0 & _ & Habs).
    destruct H0 as [-> | ->]; [exact Habs|]. rewrite abs_ensure_active in Habs. exact Habs.
Qed.

Theorem cancelled_write_session s k ts meta msize dlen dseed s' :
  partial_outcomes K cfg s (OWrite k ts meta msize dlen dseed) s' ->
  forall k' meta', get_latest_entry s' k' meta' = get_latest_entry s k' meta'.
Proof.
  intros Hpar k'. cbn [partial_outcomes] in Hpar.
  destruct (write_partial_via _ _ _ _ _ Hpar) as (s0 & H0 & Hs & _).
  apply (rsame_trans k' s s0 s').
  - destruct H0 as [-> | ->]; [apply rsame_refl|apply keeps_ensure_active].
  - apply rsame_Forall2. apply (Forall2_impl (unidx (mk_rec k ts false meta msize dlen dseed)) (isame k')) with (2 := shape_bio _ _ _ Hs).
    intros b b' [_ E]. unfold isame. rewrite E. reflexivity.
Qed.

Corollary cancelled_write_before_or_after s k ts meta msize dlen dseed s' :
  cancel_outcomes K cfg s (OWrite k ts meta msize dlen dseed) s' ->
  forall k' meta', get_latest_entry s' k' meta' = get_latest_entry s k' meta' \/
                   get_latest_entry s' k' meta' = get_latest_entry (fst (step K cfg s (OWrite k ts meta msize dlen dseed))) k' meta'.
Proof.
  intros [_ [-> | [-> | [_ Hpar]]]] k' meta'; [left; reflexivity|right; reflexivity|left].
  apply (cancelled_write_session _ _ _ _ _ _ _ _ Hpar).
Qed.

(* on disk the cancelled write and the completed write are the same files: a start that reads the blob as the
   session left it (no index dump in between) sees the write entirely *)
Lemma unindexed_same_files b r :
  blob_from_file K (append_unindexed b r) = blob_from_file K (fst (blob_append b r)).
Proof. unfold blob_append. destruct (b_ondisk b); reflexivity. Qed.

Lemma size_of_firstn_le n l : size_of K (firstn n l) <= size_of K l.
Proof.
  rewrite <- (firstn_skipn n l) at 2. unfold size_of. rewrite fold_left_app. apply fold_size_ge.
Qed.

(* ... and its index is then regenerated from the records, the new one included: the index file of the blob, if
   there is one, describes a strict prefix of the file and is rejected *)
Lemma unindexed_regenerated b r :
  blob_ok K b ->
  b_recs (blob_from_file K (append_unindexed b r)) = b_recs b ++ [r] /\
  b_idx (blob_from_file K (append_unindexed b r)) = index_of (b_recs b ++ [r]) /\
  b_idx (blob_from_file K (append_unindexed b r)) = imap_push (b_idx b) r.
Proof.
  intros [Hi Hf].
  assert (H2 : b_idx (blob_from_file K (append_unindexed b r)) = index_of (b_recs b ++ [r])).
  { unfold blob_from_file. cbn [append_unindexed b_idxfile b_recs b_id].
    unfold idxfile_ok in Hf. destruct (b_idxfile b) as [[sz m]|]; [|reflexivity].
    destruct Hf as (n & Hn & Hs & Hm).
    destruct (N.eqb_spec sz (blob_size K (append_unindexed b r))) as [E|_]; [|reflexivity].
    exfalso. rewrite blob_size_size_of in E. cbn [append_unindexed b_recs] in E.
    unfold size_of in E at 1. rewrite fold_left_app in E. cbn [fold_left] in E.
    fold (size_of K (b_recs b)) in E. pose proof (size_of_firstn_le n (b_recs b)). pose proof (rec_size_pos K r). lia. }
  split; [apply blob_from_file_recs|]. split; [exact H2|].
  rewrite H2, index_of_snoc, <- Hi. reflexivity.
Qed.

(* finding F18, in general: when the blob is dumped first (Storage::close), the dumped index lacks the record but
   records the size of the file that contains it; the next start trusts it *)
Lemma unindexed_then_dump_hides b r :
  b_ondisk b = false -> b_idx b <> [] ->
  b_recs (blob_from_file K (blob_dump K (append_unindexed b r))) = b_recs b ++ [r] /\
  b_idx (blob_from_file K (blob_dump K (append_unindexed b r))) = b_idx b.
Proof.
  intros Hm Hne. split; [rewrite blob_from_file_recs, blob_dump_recs; reflexivity|].
  unfold blob_dump. cbn [append_unindexed b_ondisk b_idx]. rewrite Hm.
  destruct (b_idx b) as [|p t] eqn:E; [contradiction|].
  unfold blob_from_file. cbn [b_idxfile b_recs b_id b_idx].
  rewrite N.eqb_refl. reflexivity.
Qed.

Lemma delete_outcome_dshape s k ts meta msize oip s' :
  BlobsOk K s -> s_open s = true -> cancel_outcomes K cfg s (ODelete k ts meta msize oip) s' ->
  exists s0, (s0 = s \/ (oip = false /\ s0 = ensure_active s)) /\
             dshape (mk_rec k ts true meta msize 0 0) oip s0 s'.
Proof.
  intros HB Ho [_ [-> | [-> | [_ Hpar]]]].
  - exists s. split; [left; reflexivity|apply dshape_refl].
  - exists (delete_start s oip). split; [apply delete_start_cases|].
    rewrite (step_open K cfg s _ Ho). apply do_delete_dshape, HB.
  - apply delete_partial_via; assumption.
Qed.

(* the blob keeps its id; its records are the old ones, or -- only where Blob::delete applies -- the old ones and
   the marker *)
Definition marker_ext (mk : rec) (oip : bool) (b b' : blob) : Prop :=
  b_id b' = b_id b /\
  (b_recs b' = b_recs b \/ (delete_applies b mk oip = true /\ b_recs b' = b_recs b ++ [mk])).

Lemma dstage_marker mk oip b b' : dstage mk oip b b' -> marker_ext mk oip b b'.
Proof.
  intros [H Ha]. split; [apply (stage_ok_id _ _ _ H)|].
  destruct (stage_ok_recs _ _ _ H) as [Hr|Hr]; [left; exact Hr|].
  destruct Ha as [Ha|[Hr' _]]; [right; split; assumption|left; exact Hr'].
Qed.

Theorem cancelled_delete_log s k ts meta msize oip s' :
  BlobsOk K s -> s_open s = true -> cancel_outcomes K cfg s (ODelete k ts meta msize oip) s' ->
  exists s0, (s0 = s \/ (oip = false /\ s0 = ensure_active s)) /\
    Forall2 (orel (marker_ext (mk_rec k ts true meta msize 0 0) true)) (s_closed s0) (s_closed s') /\
    orel (marker_ext (mk_rec k ts true meta msize 0 0) oip) (s_active s0) (s_active s').
Proof.
  intros HB Ho Hc. destruct (delete_outcome_dshape s k ts meta msize oip s' HB Ho Hc) as (s0 & H0 & [[_ Ha _ _ _ _] Hcl]).
  exists s0. split; [exact H0|]. split.
  - apply (Forall2_impl _ _ _ _ (orel_impl _ _ (dstage_marker _ true)) Hcl).
  - apply (orel_impl _ _ (dstage_marker _ oip) _ _ Ha).
Qed.

Lemma done_idx b mk : blob_ok K b -> b_idx (fst (blob_append (blob_load_index K b) mk)) = imap_push (b_idx b) mk.
Proof.
  intros Hb. unfold blob_append. rewrite blob_load_index_mem. cbn [fst b_idx]. rewrite (load_index_idx b Hb). reflexivity.
Qed.

Section DeleteRead.
Variable mk : rec.
Hypothesis Hdel : r_del mk = true.
Variable meta : option N.

Let g (b : blob) : rr rec := blob_get_latest (b_idx b) (r_key mk) meta.
Let D : rr rec := Deleted (r_ts mk).

Lemma tri_blob o b b' :
  blob_ok K b -> dstage mk o b b' -> tri D (g b) (g b') (g (fst (fst (blob_delete K b mk o)))).
Proof.
  intros Hb [H Ha]. rewrite blob_delete_stage. unfold g.
  destruct (delete_applies b mk o) eqn:A.
  - rewrite (done_idx b mk Hb), (bgl_push b mk meta (proj1 Hb) Hdel).
    destruct (stage_ok_idx _ _ _ H) as [E|E]; rewrite E; [apply tri_later|].
    rewrite (bgl_push b mk meta (proj1 Hb) Hdel). apply tri_done.
  - destruct Ha as [Ha|[_ E]]; [discriminate Ha|]. rewrite E. apply tri_none.
Qed.

Lemma Tri_slots o l l' :
  (forall b, In (Some b) l -> blob_ok K b) -> Forall2 (orel (dstage mk o)) l l' ->
  Tri D (map g (cb l)) (map g (cb l'))
        (map g (cb (map (option_map (fun b => fst (fst (blob_delete K b mk o)))) l))).
Proof.
  intros Hb HF. induction HF as [|x x' l l' Hx HF IH]; [constructor|].
  assert (IH' := IH (fun b Hin => Hb b (or_intror Hin))). clear IH.
  destruct Hx as [|b b' Hbb]; cbn [map option_map].
  - rewrite !cb_cons_none. exact IH'.
  - rewrite !cb_cons_some. cbn [map]. constructor; [|exact IH'].
    apply tri_blob; [apply Hb; left; reflexivity|exact Hbb].
Qed.

Lemma Tri_active o a a' :
  (forall b, a = Some b -> blob_ok K b) -> orel (dstage mk o) a a' ->
  Tri D (map g (oa a)) (map g (oa a')) (map g (oa (option_map (fun b => fst (fst (blob_delete K b mk o))) a))).
Proof.
  intros Hb H. destruct H as [|b b' Hbb]; cbn [oa option_map map]; [constructor|].
  constructor; [|constructor]. apply tri_blob; [apply Hb; reflexivity|exact Hbb].
Qed.

(* s0: the state in which the delete starts its work; s': dropped; sc: completed *)
Lemma dshape_read oip s0 s' sc :
  BlobsOk K s0 -> dshape mk oip s0 s' ->
  s_closed sc = map (option_map (fun b => fst (fst (blob_delete K b mk true)))) (s_closed s0) ->
  s_active sc = option_map (fun b => fst (fst (blob_delete K b mk oip))) (s_active s0) ->
  get_latest_entry s' (r_key mk) meta = get_latest_entry s0 (r_key mk) meta \/
  get_latest_entry s' (r_key mk) meta = get_latest_entry sc (r_key mk) meta.
Proof.
  intros [HBc HBa] Hd Ec Ea. rewrite !gle_as_fold, !bio_eq, Ec, Ea, !map_app.
  apply (Tri_merged D). apply Tri_app.
  - apply Tri_slots; [exact HBc|apply Hd].
  - apply Tri_active; [exact HBa|apply (sh_active _ _ _ (proj1 Hd))].
Qed.

End DeleteRead.

Theorem cancelled_delete_read s k ts meta msize oip s' :
  BlobsOk K s -> s_open s = true -> cancel_outcomes K cfg s (ODelete k ts meta msize oip) s' ->
  forall meta',
    get_latest_entry s' k meta' = get_latest_entry s k meta' \/
    get_latest_entry s' k meta' = get_latest_entry (fst (step K cfg s (ODelete k ts meta msize oip))) k meta'.
Proof.
  intros HB Ho [_ [-> | [-> | [_ Hpar]]]] meta'; [left; reflexivity|right; reflexivity|].
  cbn [partial_outcomes] in Hpar.
  destruct (delete_partial_cases s _ oip s' HB Hpar) as [-> | Hd]; [left; reflexivity|].
  rewrite (step_open K cfg s _ Ho). cbn [fst].
  destruct (do_delete_slots s k ts meta msize oip) as [Ec Ea].
  pose proof (dshape_read (mk_rec k ts true meta msize 0 0) eq_refl meta' oip (delete_start s oip) s'
                (fst (do_delete K s k ts meta msize oip)) (BlobsOk_delete_start s oip HB) Hd Ec Ea) as H.
  cbn [mk_rec r_key] in H.
  rewrite (proj2 (keeps_delete_start k s oip) meta') in H. exact H.
Qed.

Lemma pop_last_mlo f l :
  pop_last (map_last_occupied f l) = match pop_last l with Some (b, c) => Some (f b, c) | None => None end.
Proof.
  induction l as [|x l IH]; [reflexivity|]. cbn [map_last_occupied pop_last].
  destruct (pop_last l) as [[b c]|] eqn:P.
  - cbn [pop_last]. rewrite IH. reflexivity.
  - destruct x as [b|]; cbn [pop_last]; rewrite P; reflexivity.
Qed.

Lemma load_index_idem b : blob_load_index K (blob_load_index K b) = blob_load_index K b.
Proof.
  pose proof (blob_load_index_mem K b) as Hm. set (b1 := blob_load_index K b) in *.
  unfold blob_load_index. rewrite Hm. reflexivity.
Qed.

Lemma mlo_none f l : pop_last l = None -> map_last_occupied f l = l.
Proof.
  induction l as [|x l IH]; [reflexivity|]. cbn [map_last_occupied pop_last].
  destruct (pop_last l) as [[b c]|]; [discriminate|]. destruct x; [discriminate|reflexivity].
Qed.

(* a restore_active dropped after the index was loaded: calling it again gives the state the first call would have given *)
Lemma restore_retry_completes s s' :
  restore_partial K s s' -> fst (restore_active K s') = fst (restore_active K s).
Proof.
  intros [Hn]. unfold restore_active. cbn [upd_closed s_active s_closed]. rewrite Hn, pop_last_mlo.
  destruct (pop_last (s_closed s)) as [[b c]|] eqn:P; cbn [fst].
  - rewrite load_index_idem. reflexivity.
  - rewrite (mlo_none _ _ P). destruct s; reflexivity.
Qed.

Theorem cancel_safety s o s' :
  Inv K s -> ActiveInMemory s -> s_open s = true -> cancel_outcomes K cfg s o s' ->
  (forall k, op_key o <> Some k ->
     of_key k (abs s') = of_key k (abs s) /\ forall meta, get_latest_entry s' k meta = get_latest_entry s k meta) /\
  good s s' /\
  ActiveInMemory s' /\ s_alive s' = s_alive s /\ IdsOk s' /\ s_open s' = true.
Proof.
  intros (HB & HI & _) HA Ho Hc. pose proof (cancel_outcomes_safe s o s' HB Ho Hc) as H.
  destruct (safe_later _ s s' H Ho) as (C & D & E & F).
  split; [exact (safe_keeps _ _ _ H)|]. split; [apply (safe_good _ _ _ H)|].
  split; [apply C, HA|]. split; [exact D|]. split; [apply E, HI|exact F].
Qed.

Theorem cancel_append_only s o s' b :
  BlobsOk K s -> s_open s = true -> cancel_outcomes K cfg s o s' -> In b (blobs_in_order s) ->
  exists b', In b' (blobs_in_order s') /\ b_id b' = b_id b /\ prefix_of (b_recs b) (b_recs b').
Proof.
  intros HB Ho Hc Hb. destruct (cancel_no_harm s o s' HB Ho Hc) as (HL & _ & _).
  destruct (HL b Hb) as (b' & Hin & Hid & Hp). exists b'. split; [exact Hin|]. split; assumption.
Qed.

Theorem reach_cancel_safety ops o s' :
  s_open (reach K cfg ops) = true -> cancel_outcomes K cfg (reach K cfg ops) o s' ->
  (forall k, op_key o <> Some k ->
     of_key k (abs s') = of_key k (abs (reach K cfg ops)) /\
     forall meta, get_latest_entry s' k meta = get_latest_entry (reach K cfg ops) k meta) /\
  good (reach K cfg ops) s' /\
  ActiveInMemory s' /\ s_alive s' = s_alive (reach K cfg ops) /\ IdsOk s' /\ s_open s' = true.
Proof. intros Ho Hc. apply (cancel_safety _ o s'); [apply reach_Inv|apply reach_ActiveInMemory|exact Ho|exact Hc]. Qed.
End K.

Definition c_cfg : config := {| c_dup := true; c_maxrec := 1000; c_maxsize := 1000000 |}.
Definition c_rec : rec := mk_rec 2 7 false None 8 5 9001.
Definition c_state : storage := cancel_write_midway (reach 4 c_cfg [OOpen false; OWrite 1 7 None 8 5 1]) c_rec.

(* c_state is an outcome of the cancelled write in the sense of cancel_outcomes *)
Lemma c_state_is_outcome :
  cancel_outcomes 4 c_cfg (reach 4 c_cfg [OOpen false; OWrite 1 7 None 8 5 1]) (OWrite 2 7 None 8 5 9001) c_state.
Proof.
  split; [reflexivity|]. right. right. split; [reflexivity|].
  exact (wp_bytes c_cfg (reach 4 c_cfg [OOpen false; OWrite 1 7 None 8 5 1]) 2 None c_rec eq_refl).
Qed.

(* in the session the cancelled write is invisible ("not at all") *)
Lemma cancelled_write_invisible_in_session : get_latest_entry c_state 2 None = NotFound.
Proof. vm_compute. reflexivity. Qed.

(* if the session ends WITHOUT close, the next start regenerates the index and the write is there ("entirely") *)
Lemma cancelled_write_visible_after_drop_and_open :
  get_latest_entry (fst (run 4 c_cfg c_state [ODrop; OOpen false])) 2 None = Found c_rec.
Proof. vm_compute. reflexivity. Qed.

(* REFUTATION of "all or nothing at the latest from the next start" (finding F18): after a regular close the
   dumped index lacks the record but records a blob size that covers it, so the next start trusts it: the
   write is still invisible -- and it appears once the index file is removed *)
Lemma cancelled_write_surfaces_only_after_index_removal :
  get_latest_entry (fst (run 4 c_cfg c_state [OClose; OOpen false])) 2 None = NotFound /\
  get_latest_entry (fst (run 4 c_cfg c_state [OClose; OOpen false; OClose; ORmIndex 0; OOpen false])) 2 None = Found c_rec.
Proof. vm_compute. split; reflexivity. Qed.

(* other keys are untouched by the cancellation, in every state *)
Lemma cancel_keeps_other_keys s r k :
  r_key r <> k -> of_key k (abs (cancel_write_midway s r)) = of_key k (abs s).
Proof.
  intros Hk. unfold cancel_write_midway. destruct (s_active s) as [b|] eqn:E; [|reflexivity].
  apply (shape_keeps (stage_ok r)).
  - intros x x'. apply stage_ok_bsame, Hk.
  - apply (shape_upd_active _ _ b); [apply stage_ok_refl|exact E|apply unindexed_ok].
Qed.

(* a delete dropped while the closed blobs are processed: two closed blobs hold key 1 (timestamps 7 and 8), the
   delete (timestamp 8) has fully processed the OLDER blob only. The marker is in the log, and the read of the
   key is the read BEFORE the delete (the newer blob answers Found 8, an equal timestamp does not replace it);
   the completed delete answers Deleted 8. *)
Definition d_state : storage :=
  reach 4 c_cfg [OOpen false; OWrite 1 7 None 8 5 1; OCloseActive; OCreateActive; OWrite 1 8 None 8 5 2; OCloseActive].
Definition d_op : op := ODelete 1 8 None 8 true.
Definition d_mk : rec := mk_rec 1 8 true None 8 0 0.
Definition d_out : storage :=
  upd_closed (delete_active_done 4 (delete_start d_state true) d_mk true)
             (match s_closed d_state with
              | Some b0 :: rest => Some (fst (blob_append (blob_load_index 4 b0) d_mk)) :: rest
              | l => l
              end).

Lemma d_out_is_outcome : cancel_outcomes 4 c_cfg d_state d_op d_out.
Proof.
  split; [reflexivity|]. right. right. split; [reflexivity|].
  apply (dp_closed 4 d_state d_mk true). vm_compute.
  constructor; [apply ss_stage; [reflexivity|apply (ds_done 4)]|].
  constructor; [apply ss_stage; [reflexivity|apply (ds_untouched 4)]|constructor].
Qed.

Lemma d_out_read :
  In d_mk (abs d_out) /\ ~ In d_mk (abs d_state) /\
  get_latest_entry d_out 1 None = get_latest_entry d_state 1 None /\
  get_latest_entry d_state 1 None = Found (mk_rec 1 8 false None 8 5 2) /\
  get_latest_entry (fst (step 4 c_cfg d_state d_op)) 1 None = Deleted 8.
Proof.
  split; [vm_compute; auto|]. split; [vm_compute; intros [H|[H|[]]]; discriminate H|].
  vm_compute. repeat split.
Qed.
