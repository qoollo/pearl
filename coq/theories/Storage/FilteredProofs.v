(* The filtered read paths of Filtered.v return what the filterless model returns, after every history of storage
   operations interleaved with offload_buffer calls.

   A blob without a record of the key answers NotFound, resp. contributes the empty list (its index is the index of its
   records), and neither ReadResult::latest nor the merge of the all-versions read sees such an answer. So a read that
   consults a sublist of the slots, in the same order, and skips blobs by any check that never rejects a key the blob
   holds, is the full read, provided every blob holding the key is in the sublist. The iterator of the hierarchy yields
   such a sublist. That is what the invariant `Tracked` gives: the hierarchy is reachable by hops whose pushed filters
   are well formed, slot c of the storage holds a blob whose keys all belong to the key list the filter pushed at c was
   built from, and the occupancy patterns coincide. It is kept because within a session every storage step changes the
   closed slots in one of three ways (`cchange`): the slots keep their occupancy and their key sets do not grow (a closed
   blob only ever receives deletion markers of keys it already holds); one slot is appended; the last occupied slot is
   vacated. `classify` recognises which, so that outside session boundaries its `TRebuild` fallback is dead code. *)
Require Import Pearl.Base.Prelude Pearl.Base.LE Pearl.Base.AHash Pearl.Blob.Bytes Pearl.Filter.Bloom Pearl.Filter.BloomProofs
               Pearl.Filter.Hier Pearl.Filter.HierProofs Pearl.Filter.Combined Pearl.Filter.CombinedProofs.
Require Import Pearl.Storage.Model Pearl.Storage.Spec Pearl.Storage.Inv Pearl.Storage.IndexProofs Pearl.Storage.ReadProofs
               Pearl.Storage.ReadAllProofs Pearl.Storage.InvProofs Pearl.Storage.Theorems Pearl.Storage.Filtered.
Local Open Scope nat_scope.

Inductive sublist {A : Type} : list A -> list A -> Prop :=
| sl_nil : sublist [] []
| sl_take x l1 l2 : sublist l1 l2 -> sublist (x :: l1) (x :: l2)
| sl_skip x l1 l2 : sublist l1 l2 -> sublist l1 (x :: l2).

Lemma sublist_nil_l {A} (l : list A) : sublist [] l.
Proof. induction l as [|x l IH]; [constructor | apply sl_skip, IH]. Qed.

Lemma sublist_refl {A} (l : list A) : sublist l l.
Proof. induction l as [|x l IH]; [constructor | apply sl_take, IH]. Qed.

Lemma sublist_filter {A} (p : A -> bool) (l : list A) : sublist (filter p l) l.
Proof.
  induction l as [|x l IH]; [constructor|]. cbn [filter]. destruct (p x); [apply sl_take | apply sl_skip]; exact IH.
Qed.

Lemma sublist_app {A} (a a' b b' : list A) : sublist a a' -> sublist b b' -> sublist (a ++ b) (a' ++ b').
Proof.
  intros Ha Hb. induction Ha as [|x l1 l2 Ha IH|x l1 l2 Ha IH]; cbn [app].
  - exact Hb.
  - apply sl_take, IH.
  - apply sl_skip, IH.
Qed.

Lemma sublist_in {A} (a b : list A) x : sublist a b -> In x a -> In x b.
Proof.
  intros Hs. induction Hs as [|y l1 l2 Hs IH|y l1 l2 Hs IH]; intros Hin.
  - destruct Hin.
  - destruct Hin as [->|Hin]; [left; reflexivity | right; apply IH, Hin].
  - right. apply IH, Hin.
Qed.

Lemma sublist_flat_map {A B} (g f : A -> list B) (l : list A) :
  (forall x, sublist (g x) (f x)) -> sublist (flat_map g l) (concat (map f l)).
Proof.
  intros Hgf. induction l as [|x l IH]; [constructor|]. cbn [flat_map map concat]. apply sublist_app; [apply Hgf | exact IH].
Qed.

Lemma rr_latest_notfound (acc : rr rec) : rr_latest r_ts acc NotFound = acc.
Proof. exact (rr_latest_NotFound_r acc). Qed.

Section Proofs.
Variable K : N.
Variable bloom0 : option bloom.

Notation kadd := (cf_add bloom_hash (ckey_bytes K)).
Notation kcontains := (cf_contains bloom_hash (ckey_bytes K)).

Definition indexed (k : N) (b : blob) : bool := match imap_get (b_idx b) k with Some _ => true | None => false end.

Lemma blob_latest_unindexed k b meta : indexed k b = false -> blob_get_latest (b_idx b) k meta = NotFound.
Proof.
  unfold indexed. destruct (imap_get (b_idx b) k) eqn:Hg; [discriminate|]. intros _.
  rewrite <- (blob_get_latest_nil k meta). apply blob_get_latest_ext. exact Hg.
Qed.

Lemma all_dm_unindexed k b : indexed k b = false -> idx_get_all_dm (b_idx b) k = [].
Proof. unfold indexed, idx_get_all_dm. destruct (imap_get (b_idx b) k); [discriminate|reflexivity]. Qed.

Lemma indexed_key k b : idx_ok b -> indexed k b = true -> In k (blob_keys b).
Proof.
  intros Hok. unfold indexed. rewrite Hok, imap_get_index_of.
  destruct (of_key k (b_recs b)) as [|r l] eqn:E; [discriminate|]. intros _.
  assert (Hr : In r (of_key k (b_recs b))) by (rewrite E; left; reflexivity).
  apply filter_In in Hr. destruct Hr as [Hr Ek]. apply N.eqb_eq in Ek. subst k. apply in_map, Hr.
Qed.

Lemma idx_found_key b k h : idx_ok b -> idx_get_latest (b_idx b) k = Found h -> In k (blob_keys b).
Proof.
  intros Hok Hf. apply (indexed_key k b Hok). unfold indexed. unfold idx_get_latest in Hf.
  destruct (imap_get (b_idx b) k); [reflexivity|discriminate Hf].
Qed.

Section Opened.
Variable chk : option nat -> blob -> N -> bool.
Variable k : N.
Variable look : nat -> option (option blob).

Definition opened_blobs (L : list nat) : list blob :=
  flat_map (fun j => match look j with Some (Some b) => if chk (Some j) b k then [b] else [] | _ => [] end) L.

Lemma opened_blobs_rev L : opened_blobs (rev L) = rev (opened_blobs L).
Proof. apply flat_map_rev. intros j. destruct (look j) as [[b|]|]; [destruct (chk (Some j) b k)| |]; reflexivity. Qed.

Lemma fold_opened (g : blob -> rr rec) L : forall a,
  fold_left (fun acc j => match look j with
                          | Some (Some b) => rr_latest r_ts acc (if chk (Some j) b k then g b else NotFound)
                          | _ => acc
                          end) L a =
  fold_left (fun acc b => rr_latest r_ts acc (g b)) (opened_blobs L) a.
Proof.
  unfold opened_blobs. induction L as [|j L IH]; intros a; [reflexivity|].
  cbn [fold_left flat_map]. rewrite fold_left_app, IH.
  destruct (look j) as [[b|]|]; [destruct (chk (Some j) b k)| |]; reflexivity.
Qed.

Lemma flat_map_opened (g : blob -> list rec) L :
  flat_map (fun j => match look j with
                     | Some (Some b) => if chk (Some j) b k then [g b] else []
                     | _ => []
                     end) L = map g (opened_blobs L).
Proof.
  unfold opened_blobs. induction L as [|j L IH]; [reflexivity|].
  cbn [flat_map]. rewrite map_app, IH.
  destruct (look j) as [[b|]|]; [destruct (chk (Some j) b k)| |]; reflexivity.
Qed.

(* when the slots L are an increasing selection that misses no blob holding the key, the opened blobs that have an
   entry for the key are the closed blobs that have one, in the same order *)
Lemma opened_cover : forall (c : list (option blob)) i L,
  (forall j o, nth_error c j = Some o -> look (i + j) = Some o) ->
  sublist L (seq i (length c)) ->
  (forall j b, nth_error c j = Some (Some b) -> indexed k b = true -> In (i + j) L /\ chk (Some (i + j)) b k = true) ->
  filter (indexed k) (opened_blobs L) = filter (indexed k) (cb c).
Proof.
  unfold opened_blobs. induction c as [|o c IH]; intros i L Hlook Hsub Hcov.
  - inversion Hsub. reflexivity.
  - cbn [length seq] in Hsub.
    assert (Hlook' : forall j o', nth_error c j = Some o' -> look (S i + j) = Some o').
    { intros j o' Hj. replace (S i + j) with (i + S j) by lia. apply Hlook. exact Hj. }
    assert (Hcov' : forall L', (forall x, In x L -> x = i \/ In x L') ->
              forall j b, nth_error c j = Some (Some b) -> indexed k b = true ->
                          In (S i + j) L' /\ chk (Some (S i + j)) b k = true).
    { intros L' HL j b Hj Hb. replace (S i + j) with (i + S j) by lia. destruct (Hcov (S j) b Hj Hb) as [H1 H2].
      split; [|exact H2]. destruct (HL _ H1) as [E|E]; [lia | exact E]. }
    pose proof (Hlook 0 o eq_refl) as Hl0. specialize (Hcov 0). rewrite Nat.add_0_r in Hl0, Hcov.
    inversion Hsub as [|x l1 l2 Hs1 E1 E2|x l1 l2 Hs1 E1 E2]; subst.
    + (* slot i is yielded *)
      cbn [flat_map]. rewrite filter_app, (IH (S i) l1 Hlook' Hs1).
      2:{ apply Hcov'. intros x [<-|Hx]; [left; reflexivity | right; exact Hx]. }
      rewrite Hl0. destruct o as [b|]; [|rewrite cb_cons_none; reflexivity].
      rewrite cb_cons_some. cbn [filter]. destruct (indexed k b) eqn:Hb.
      * rewrite (proj2 (Hcov b eq_refl Hb)). cbn [filter app]. rewrite Hb. reflexivity.
      * destruct (chk (Some i) b k); cbn [filter app]; rewrite ?Hb; reflexivity.
    + (* slot i is skipped: its blob has no entry for the key *)
      rewrite (IH (S i) L Hlook' Hs1).
      2:{ apply Hcov'. intros x Hx. right. exact Hx. }
      destruct o as [b|]; [|rewrite cb_cons_none; reflexivity].
      rewrite cb_cons_some. cbn [filter]. destruct (indexed k b) eqn:Hb; [|reflexivity].
      exfalso. destruct (Hcov b eq_refl Hb) as [Hc _]. apply (sublist_in _ _ _ Hs1), in_seq in Hc. lia.
Qed.
End Opened.

(* a blob without an entry for the key contributes nothing to either read *)
Lemma latest_only_indexed k meta bs : forall a,
  fold_left (fun acc b => rr_latest r_ts acc (blob_get_latest (b_idx b) k meta)) bs a =
  fold_left (fun acc b => rr_latest r_ts acc (blob_get_latest (b_idx b) k meta)) (filter (indexed k) bs) a.
Proof.
  induction bs as [|b bs IH]; intros a; [reflexivity|]. cbn [filter fold_left].
  destruct (indexed k b) eqn:Hb; [apply IH|]. rewrite (blob_latest_unindexed k b meta Hb). apply IH.
Qed.

(* an empty contribution changes neither the count of contributing blobs, nor the marker presence, nor the
   concatenation *)
Lemma ra_merge_nil (a b : list (list rec)) : ra_merge (a ++ [] :: b) = ra_merge (a ++ b).
Proof. unfold ra_merge. rewrite !filter_app, !existsb_app, !concat_app. reflexivity. Qed.

Lemma all_only_indexed k bs :
  ra_merge (map (fun b => idx_get_all_dm (b_idx b) k) bs) =
  ra_merge (map (fun b => idx_get_all_dm (b_idx b) k) (filter (indexed k) bs)).
Proof.
  enough (H : forall a, ra_merge (a ++ map (fun b => idx_get_all_dm (b_idx b) k) bs) =
                        ra_merge (a ++ map (fun b => idx_get_all_dm (b_idx b) k) (filter (indexed k) bs)))
    by exact (H []).
  induction bs as [|b bs IH]; intros a; [reflexivity|]. cbn [filter map]. destruct (indexed k b) eqn:Hb.
  - cbn [map]. specialize (IH (a ++ [idx_get_all_dm (b_idx b) k])). rewrite <- !app_assoc in IH. exact IH.
  - rewrite (all_dm_unindexed k b Hb), ra_merge_nil. apply IH.
Qed.

(* the blobs a filtered read opens, in the order it opens them: the active blob, then the closed blobs in the slots the
   iterator yields, newest first, each only if its check lets the key pass *)
Definition opened (chk : option nat -> blob -> N -> bool) (h : chier) (s : storage) (k : N) : list blob :=
  match s_active s with Some b => if chk None b k then [b] else [] | None => [] end
  ++ opened_blobs chk k (nth_error (s_closed s)) (rev (ch_iter K h k)).

Lemma latest_opened chk h s k meta :
  get_latest_entry_filtered_with K chk h s k meta =
  fold_left (fun acc b => rr_latest r_ts acc (blob_get_latest (b_idx b) k meta)) (opened chk h s k) NotFound.
Proof.
  unfold get_latest_entry_filtered_with, opened. cbv zeta. rewrite fold_left_app.
  rewrite (fold_opened chk k (nth_error (s_closed s)) (fun b => blob_get_latest (b_idx b) k meta)).
  destruct (s_active s) as [b|]; [|reflexivity]. destruct (chk None b k); reflexivity.
Qed.

Lemma all_opened chk h s k :
  read_all_dm_filtered_with K chk h s k = ra_merge (map (fun b => idx_get_all_dm (b_idx b) k) (opened chk h s k)).
Proof.
  unfold read_all_dm_filtered_with, per_blob_filtered_with, opened.
  rewrite map_app, (flat_map_opened chk k (nth_error (s_closed s)) (fun b => idx_get_all_dm (b_idx b) k)).
  destruct (s_active s) as [b|]; [|reflexivity]. destruct (chk None b k); [reflexivity|]. apply (ra_merge_nil []).
Qed.

Lemma opened_indexed chk (h : chier) s k :
  (forall b, In (Some b) (s_closed s) -> idx_ok b) ->
  (forall b, s_active s = Some b -> idx_ok b) ->
  sublist (ch_iter K h k) (seq 0 (length (s_closed s))) ->
  (forall b, s_active s = Some b -> In k (blob_keys b) -> chk None b k = true) ->
  (forall c b, nth_error (s_closed s) c = Some (Some b) -> In k (blob_keys b) ->
               In c (ch_iter K h k) /\ chk (Some c) b k = true) ->
  filter (indexed k) (opened chk h s k) = filter (indexed k) (newest_first s).
Proof.
  intros Hokc Hoka Hsub Hca Hcc. unfold opened, newest_first. rewrite !filter_app. f_equal.
  - destruct (s_active s) as [b|]; [|reflexivity]. destruct (indexed k b) eqn:Hb.
    + rewrite (Hca b eq_refl (indexed_key k b (Hoka b eq_refl) Hb)). reflexivity.
    + destruct (chk None b k); cbn [filter]; rewrite ?Hb; reflexivity.
  - rewrite opened_blobs_rev, !filter_rev, closed_blobs_cb. f_equal.
    apply (opened_cover chk k (nth_error (s_closed s)) (s_closed s) 0); [intros j o Hj; exact Hj | exact Hsub |].
    intros j b Hj Hb. apply Hcc; [exact Hj|]. apply indexed_key; [|exact Hb]. apply Hokc. exact (nth_error_In _ _ Hj).
Qed.

Lemma iter_sublist (h : chier) k :
  sublist (ch_iter K h k) (concat (map (hn_leaves combined) (h_nodes combined h))).
Proof.
  unfold ch_iter, iter_possible. apply sublist_flat_map. intros n.
  destruct (node_passes N combined kcontains h n k); [apply sublist_filter | apply sublist_nil_l].
Qed.

Definition isSome {A} (o : option A) : bool := match o with Some _ => true | None => false end.

Lemma occ_isSome c : occ c = map isSome c.
Proof. reflexivity. Qed.

Lemma occ_length c : length (occ c) = length c.
Proof. apply map_length. Qed.

Lemma occ_app c1 c2 : occ (c1 ++ c2) = occ c1 ++ occ c2.
Proof. apply map_app. Qed.

Definition bloom0_wf : Prop := cf_wf (cf_new bloom0).

Definition slot_rel (o : option blob) (f : combined) : Prop :=
  match o with
  | Some b => exists ks, f = fold_left kadd ks (cf_new bloom0) /\ incl (blob_keys b) ks
  | None => True
  end.

Definition Tracked (group : nat) (c : list (option blob)) (h : chier) : Prop :=
  exists hops, h = ch_run K group hops /\ Forall cf_wf (pushed combined hops) /\
               Forall2 slot_rel c (pushed combined hops) /\ map isSome (h_children combined h) = occ c.

Lemma pushed_app (a b : list (hop combined)) : pushed combined (a ++ b) = pushed combined a ++ pushed combined b.
Proof.
  induction a as [|o a IH]; [reflexivity|]. cbn [app]. rewrite !pushed_cons, IH, app_assoc. reflexivity.
Qed.

Lemma ch_run_snoc group hops o : ch_run K group (hops ++ [o]) = ch_step K (ch_run K group hops) o.
Proof. unfold ch_run. rewrite fold_left_app. reflexivity. Qed.

Lemma children_push (h : chier) f :
  h_children combined (ch_step K h (HPush combined f)) = h_children combined h ++ [Some f].
Proof.
  unfold ch_step. cbn [h_step]. unfold h_push.
  destruct (length (h_children combined h) <? h_group combined h); reflexivity.
Qed.

Lemma children_off (h : chier) x :
  map isSome (h_children combined (ch_step K h (hoff_hop x))) = map isSome (h_children combined h).
Proof.
  destruct x as [|needed level]; unfold ch_step; cbn [hoff_hop h_step].
  - unfold h_offload_nodes. cbn [h_children]. rewrite map_map. apply map_ext. intros [g|]; reflexivity.
  - unfold h_offload.
    destruct (off_children combined cf_offload cf_mem (h_nodes combined h) (1 <=? level) needed (h_children combined h) 0 0%N [])
      as [[[ch fr1] ps] st1] eqn:Ec.
    apply off_children_ostep in Ec.
    assert (Hm : map isSome ch = map isSome (h_children combined h)).
    { symmetry. apply (Forall2_map_eq (ostep combined cf_offload)); [|exact Ec].
      intros o o' [->| ->]; [reflexivity|]. destruct o; reflexivity. }
    destruct (st1 || (level <? 1)); [exact Hm|].
    destruct (off_nodes combined cf_offload cf_mem needed (h_nodes combined h) 0 ps fr1) as [[[nodes fr2] visited] st2].
    destruct (h_wrapped combined h); [destruct (st2 || negb visited || N.leb needed fr2)|]; exact Hm.
Qed.

Lemma Tracked_new group : Tracked group [] (ch_new group).
Proof. exists []. repeat split; constructor. Qed.

(* offload_buffer, at any time *)
Lemma Tracked_off group c h x : Tracked group c h -> Tracked group c (ch_step K h (hoff_hop x)).
Proof.
  intros (hops & -> & Hwf & Hrel & Hocc). exists (hops ++ [hoff_hop x]).
  assert (Ex : pushed combined [hoff_hop x] = []) by (destruct x; reflexivity).
  rewrite ch_run_snoc, pushed_app, Ex, app_nil_r, children_off.
  split; [reflexivity|]. split; [exact Hwf|]. split; [exact Hrel | exact Hocc].
Qed.

Definition slot_ge (o o' : option blob) : Prop :=
  match o, o' with
  | None, None => True
  | Some b, Some b' => incl (blob_keys b') (blob_keys b)
  | _, _ => False
  end.
Definition slots_ge (c c' : list (option blob)) : Prop := Forall2 slot_ge c c'.

Lemma slot_ge_refl o : slot_ge o o.
Proof. destruct o; cbn; [apply incl_refl | exact I]. Qed.

Lemma slots_ge_refl c : slots_ge c c.
Proof. apply Forall2_diag, slot_ge_refl. Qed.

Lemma slot_ge_trans o1 o2 o3 : slot_ge o1 o2 -> slot_ge o2 o3 -> slot_ge o1 o3.
Proof.
  destruct o1, o2, o3; cbn; try tauto. intros H1 H2. eapply incl_tran; eassumption.
Qed.

Lemma slots_ge_trans c1 c2 c3 : slots_ge c1 c2 -> slots_ge c2 c3 -> slots_ge c1 c3.
Proof.
  intros H12. revert c3. induction H12 as [|x y l l' Hxy H12 IH]; intros c3 H23; inversion H23; subst; constructor.
  - eapply slot_ge_trans; eassumption.
  - apply IH. assumption.
Qed.

Lemma slots_ge_occ c c' : slots_ge c c' -> occ c' = occ c.
Proof.
  intros H. symmetry. apply (Forall2_map_eq slot_ge); [|exact H].
  intros [b|] [b'|] Hxy; try contradiction Hxy; reflexivity.
Qed.

Lemma slots_ge_map (f : blob -> blob) c :
  (forall b, In (Some b) c -> incl (blob_keys (f b)) (blob_keys b)) -> slots_ge c (map (option_map f) c).
Proof.
  induction c as [|o c IH]; intros Hf; constructor.
  - destruct o as [b|]; [|exact I]. apply Hf. left. reflexivity.
  - apply IH. intros b Hb. apply Hf. right. exact Hb.
Qed.

Lemma slot_rel_ge o o' f : slot_ge o o' -> slot_rel o f -> slot_rel o' f.
Proof.
  destruct o as [b|], o' as [b'|]; cbn; try tauto.
  intros Hge (ks & Hf & Hin). exists ks. split; [exact Hf | eapply incl_tran; eassumption].
Qed.

Lemma Tracked_ge group c c' h : slots_ge c c' -> Tracked group c h -> Tracked group c' h.
Proof.
  intros Hge (hops & -> & Hwf & Hrel & Hocc). exists hops. split; [reflexivity|]. split; [exact Hwf|]. split.
  - exact (Forall2_step slot_ge slot_rel _ _ _ slot_rel_ge Hge Hrel).
  - rewrite (slots_ge_occ _ _ Hge). exact Hocc.
Qed.

(* close_active_blob / update_active_blob: push *)
Lemma Tracked_push group c h b :
  bloom0_wf -> Tracked group c h ->
  Tracked group (c ++ [Some b]) (ch_step K h (HPush combined (blob_filter K bloom0 b))).
Proof.
  intros H0 (hops & -> & Hwf & Hrel & Hocc). exists (hops ++ [HPush combined (blob_filter K bloom0 b)]).
  rewrite ch_run_snoc, pushed_app. cbn [pushed]. split; [reflexivity|]. split; [|split].
  - apply Forall_app. split; [exact Hwf|]. constructor; [apply cf_fold_add_wf, H0 | constructor].
  - apply Forall2_app; [exact Hrel|]. constructor; [|constructor]. exists (blob_keys b). split; [reflexivity | apply incl_refl].
  - rewrite children_push, map_app, Hocc, occ_app. reflexivity.
Qed.

(* restore_active_blob: pop. The last occupied slot of the hierarchy is the last occupied slot of the storage *)
Lemma pop_pattern : forall (c : list (option blob)) (l : list (option combined)) i,
  map isSome l = occ c ->
  match pop_last c with
  | Some (b, c1) => exists j, last_some_idx combined l i = Some (i + j) /\ map isSome (vacate combined l j) = occ c1
  | None => last_some_idx combined l i = None
  end.
Proof.
  induction c as [|x r IH]; intros l i Hm.
  - apply map_eq_nil in Hm. subst l. reflexivity.
  - destruct l as [|y t]; [discriminate Hm|]. cbn [map occ] in Hm. injection Hm as Hy Ht.
    specialize (IH t (S i) Ht). cbn [pop_last last_some_idx].
    destruct (pop_last r) as [[b r']|].
    + destruct IH as (j & Hj & Hv). exists (S j). rewrite Hj. split; [f_equal; lia|].
      cbn [vacate map occ]. rewrite Hv, Hy. reflexivity.
    + rewrite IH. destruct x as [b|]; destruct y as [g|]; try discriminate Hy.
      * exists 0. split; [f_equal; lia|]. cbn [vacate map occ]. rewrite Ht. reflexivity.
      * reflexivity.
Qed.

Lemma slot_rel_pop : forall (c : list (option blob)) b c1 (P : list combined),
  pop_last c = Some (b, c1) -> Forall2 slot_rel c P -> Forall2 slot_rel c1 P.
Proof.
  induction c as [|x r IH]; intros b c1 P Hp HF; cbn [pop_last] in Hp; [discriminate Hp|].
  inversion HF as [|x0 f0 r0 P0 Hx Hr]; subst.
  destruct (pop_last r) as [[b1 r1]|] eqn:Er.
  - injection Hp as <- <-. constructor; [exact Hx | eapply IH; [reflexivity | exact Hr]].
  - destruct x as [bx|]; [|discriminate Hp]. injection Hp as <- <-. constructor; [exact I | exact Hr].
Qed.

Lemma Tracked_pop group c h b c1 :
  pop_last c = Some (b, c1) -> Tracked group c h -> Tracked group c1 (ch_step K h (HPop combined)).
Proof.
  intros Hp (hops & -> & Hwf & Hrel & Hocc). exists (hops ++ [HPop combined]).
  rewrite ch_run_snoc, pushed_app. cbn [pushed]. rewrite app_nil_r.
  split; [reflexivity|]. split; [exact Hwf|]. split; [eapply slot_rel_pop; eassumption|].
  pose proof (pop_pattern c (h_children combined (ch_run K group hops)) 0 Hocc) as Hpat. rewrite Hp in Hpat.
  destruct Hpat as (j & Hj & Hv). unfold ch_step. cbn [h_step]. unfold h_pop. rewrite Hj. cbn [h_remove h_children].
  exact Hv.
Qed.

Lemma vacate_snoc (l : list (option combined)) x : vacate combined (l ++ [x]) (length l) = l ++ [None].
Proof. induction l as [|y l IH]; [reflexivity|]. cbn [app length vacate]. rewrite IH. reflexivity. Qed.

(* Storage::init: a fresh hierarchy, the occupied slots pushed, a vacated one pushed empty and removed at once *)
Lemma Tracked_push_none group c h :
  bloom0_wf -> Tracked group c h ->
  Tracked group (c ++ [None]) (ch_step K (ch_step K h (HPush combined (cf_new bloom0))) (HRemove combined (length c))).
Proof.
  intros H0 (hops & -> & Hwf & Hrel & Hocc).
  exists (hops ++ [HPush combined (cf_new bloom0); HRemove combined (length c)]).
  split; [unfold ch_run; rewrite fold_left_app; reflexivity|]. rewrite pushed_app. cbn [pushed]. split; [|split].
  - apply Forall_app. split; [exact Hwf|]. constructor; [exact H0 | constructor].
  - apply Forall2_app; [exact Hrel|]. constructor; [exact I | constructor].
  - assert (El : length c = length (h_children combined (ch_run K group hops))).
    { rewrite <- (map_length isSome (h_children _ _)), Hocc. symmetry. apply occ_length. }
    unfold ch_step at 1. cbn [h_step h_remove h_children]. rewrite children_push, El, vacate_snoc, map_app, Hocc, occ_app.
    reflexivity.
Qed.

Lemma Tracked_rebuild_from group c : forall c0 h,
  bloom0_wf -> Tracked group c0 h ->
  Tracked group (c0 ++ c) (fold_left (ch_step K) (rebuild_hops K bloom0 c (length c0)) h).
Proof.
  induction c as [|o r IH]; intros c0 h H0 HT; [rewrite app_nil_r; exact HT|].
  change (c0 ++ o :: r) with (c0 ++ [o] ++ r). rewrite app_assoc.
  destruct o as [b|]; cbn [rebuild_hops fold_left].
  - rewrite <- (last_length c0 (Some b)). apply IH; [exact H0|]. apply Tracked_push; assumption.
  - rewrite <- (last_length c0 None). apply IH; [exact H0|]. apply Tracked_push_none; assumption.
Qed.

Lemma Tracked_rebuild group c : bloom0_wf -> Tracked group c (rebuild K bloom0 group c).
Proof. intros H0. exact (Tracked_rebuild_from group c [] (ch_new group) H0 (Tracked_new group)). Qed.

Lemma tracked_sublist group c h k : Tracked group c h -> sublist (ch_iter K h k) (seq 0 (length c)).
Proof.
  intros (hops & -> & _ & Hrel & _). rewrite (Forall2_len _ _ _ Hrel).
  destruct (leaves_exact combined cf_merge cf_offload cf_mem group hops) as [Hlv _].
  rewrite <- Hlv. apply iter_sublist.
Qed.

Lemma tracked_present group c (h : chier) j :
  Tracked group c h -> present combined h j = match nth_error c j with Some (Some _) => true | _ => false end.
Proof.
  intros (hops & _ & _ & _ & Hocc). unfold present.
  rewrite occ_isSome in Hocc. apply (f_equal (fun l => nth_error l j)) in Hocc. rewrite !nth_error_map in Hocc.
  destruct (nth_error (h_children combined h) j) as [[g|]|]; destruct (nth_error c j) as [[b|]|];
    cbn in Hocc; try discriminate Hocc; reflexivity.
Qed.

Lemma tracked_cover group c h j b k :
  bloom0_wf -> Tracked group c h -> nth_error c j = Some (Some b) -> In k (blob_keys b) ->
  In j (ch_iter K h k) /\ slot_check K bloom0 h (Some j) b k = true.
Proof.
  intros H0 HT Hj Hk. pose proof (tracked_present group c h j HT) as Hpres. rewrite Hj in Hpres.
  destruct HT as (hops & -> & Hwf & Hrel & _).
  destruct (nth_error (pushed combined hops) j) as [f|] eqn:Hf.
  2:{ apply nth_error_None in Hf. rewrite <- (Forall2_len _ _ _ Hrel) in Hf. apply nth_error_None in Hf. congruence. }
  destruct (Forall2_nth_error _ _ _ _ _ _ Hrel Hj Hf) as (ks & -> & Hin).
  destruct (cf_child_complete bloom_hash (ckey_bytes K) cf_mem group hops j _ k Hwf Hf Hpres) as (Hit & g & Eg & Hgk).
  { apply cf_add_contains; [exact H0|apply Hin, Hk]. }
  split; [exact Hit|]. cbn [slot_check]. rewrite ch_run_eq, Eg. exact Hgk.
Qed.

Lemma blob_check_sound b k : bloom0_wf -> In k (blob_keys b) -> blob_check K bloom0 b k = true.
Proof. intros H0 Hk. unfold blob_check, blob_filter. apply cf_add_contains; assumption. Qed.

End Proofs.

Inductive cchange (c c' : list (option blob)) : Prop :=
| CSame : slots_ge c c' -> cchange c c'
| CPush b c1 : c' = c1 ++ [Some b] -> slots_ge c c1 -> cchange c c'
| CPop b c1 : pop_last c = Some (b, c1) -> slots_ge c1 c' -> cchange c c'.

Lemma cchange_refl c : cchange c c.
Proof. apply CSame, slots_ge_refl. Qed.

Lemma cchange_ge c c' c'' : cchange c c' -> slots_ge c' c'' -> cchange c c''.
Proof.
  intros [H|b c1 E H|b c1 E H] Hge.
  - apply CSame. eapply slots_ge_trans; eassumption.
  - subst c'. apply Forall2_app_inv_l in Hge. destruct Hge as (l1 & l2 & H1 & H2 & ->).
    inversion H2 as [|x y r r' Hxy Hr]; subst. inversion Hr; subst.
    destruct y as [b'|]; [|contradiction Hxy].
    apply (CPush _ _ b' l1); [reflexivity | eapply slots_ge_trans; eassumption].
  - apply (CPop _ _ b c1); [exact E | eapply slots_ge_trans; eassumption].
Qed.

Section Steps.
Variable K : N.
Variable cfg : config.

Lemma closed_request_dump s : s_closed (request_dump s) = s_closed s.
Proof. unfold request_dump. destruct (s_alive s); reflexivity. Qed.

Lemma closed_ensure_active s : s_closed (ensure_active s) = s_closed s.
Proof. unfold ensure_active. destruct (s_active s); reflexivity. Qed.

Lemma cc_close_active s : cchange (s_closed s) (s_closed (fst (close_active s))).
Proof.
  unfold close_active. destruct (s_active s) as [a|]; cbn [fst]; [|apply cchange_refl].
  apply (CPush _ _ a (s_closed s)); [reflexivity | apply slots_ge_refl].
Qed.

Lemma cc_create_active s : cchange (s_closed s) (s_closed (fst (create_active s))).
Proof.
  rewrite create_active_fst, closed_ensure_active. apply cchange_refl.
Qed.

Lemma cc_restore_active s : cchange (s_closed s) (s_closed (fst (restore_active K s))).
Proof.
  unfold restore_active. destruct (s_active s) as [a|]; cbn [fst]; [apply cchange_refl|].
  destruct (pop_last (s_closed s)) as [[b c]|] eqn:P; cbn [fst]; [|apply cchange_refl].
  apply (CPop _ _ b c); [exact P | apply slots_ge_refl].
Qed.

Lemma cc_worker s f :
  (forall s, cchange (s_closed s) (s_closed (fst (f s)))) -> cchange (s_closed s) (s_closed (worker s f)).
Proof. intros Hf. destruct (worker_cases s f) as [->| ->]; [apply cchange_refl | apply Hf]. Qed.

Lemma cc_replace_active s : cchange (s_closed s) (s_closed (replace_active s)).
Proof.
  rewrite replace_active_eq, closed_ensure_active. apply cc_close_active.
Qed.

Lemma cc_maybe_rotate s : cchange (s_closed s) (s_closed (maybe_rotate K cfg s)).
Proof.
  destruct (maybe_rotate_cases K cfg s) as [->| ->]; [apply cchange_refl|].
  rewrite closed_request_dump. apply cc_replace_active.
Qed.

(* the background dump rewrites index files only *)
Lemma quiesce_ge s : slots_ge (s_closed s) (s_closed (quiesce K s)).
Proof.
  destruct (quiesce_cases K s) as [->| ->]; [apply slots_ge_refl|].
  apply (slots_ge_map (blob_dump K)). intros b _. unfold blob_keys. rewrite blob_dump_recs. apply incl_refl.
Qed.

(* a closed blob only ever receives a deletion marker for a key it already holds (only_if_presented = true):
   its key SET never grows *)
Lemma blob_delete_keys b mk :
  idx_ok b -> incl (blob_keys (fst (fst (blob_delete K b mk true)))) (blob_keys b).
Proof.
  intros Hok. unfold blob_delete. cbn [negb orb].
  destruct (idx_get_latest (b_idx b) (r_key mk)) as [h|ts|] eqn:E; [|apply incl_refl|apply incl_refl].
  pose proof (idx_found_key b (r_key mk) h Hok E) as Hin.
  pose proof (blob_append_recs (blob_load_index K b) mk) as Hr.
  destruct (blob_append (blob_load_index K b) mk) as [b2 ok2]. cbn [fst] in *.
  unfold blob_keys at 1. rewrite Hr, blob_load_index_recs, map_app.
  intros x Hx. apply in_app_or in Hx. destruct Hx as [Hx|[<-|[]]]; [exact Hx | exact Hin].
Qed.

Lemma do_write_cc s k ts meta msize dlen dseed :
  cchange (s_closed s) (s_closed (fst (do_write K cfg s k ts meta msize dlen dseed))).
Proof.
  rewrite <- (closed_ensure_active s).
  destruct (do_write_cases K cfg s k ts meta msize dlen dseed) as [E|(a & b' & ok & _ & _ & E)]; rewrite E.
  - apply cchange_refl.
  - destruct ok; [exact (cc_maybe_rotate (upd_active (ensure_active s) (Some b')))|apply cchange_refl].
Qed.

Lemma do_delete_cc s k ts meta msize oip :
  BlobsOk K s -> cchange (s_closed s) (s_closed (fst (do_delete K s k ts meta msize oip))).
Proof.
  intros [Hc _]. destruct (do_delete_cases K s k ts meta msize oip) as (s1 & n & Hs1 & E).
  assert (Ec : s_closed s1 = s_closed s).
  { destruct Hs1 as [[_ ->]|(a & _ & ->)]; destruct oip; cbn [upd_active s_closed]; rewrite ?closed_ensure_active; reflexivity. }
  assert (Hge : slots_ge (s_closed s) (fst (fst (delete_in_closed K (s_closed s1) (mk_rec k ts true meta msize 0 0))))).
  { rewrite Ec, delete_in_closed_map. apply slots_ge_map. intros b Hb. apply blob_delete_keys, (Hc b Hb). }
  apply CSame. destruct E as [E|E]; rewrite E; cbn [fst]; rewrite ?closed_request_dump; exact Hge.
Qed.

(* within a session every operation leaves the slots alone (key sets not growing), appends one, or vacates the last *)
Theorem step_cc s o :
  BlobsOk K s -> restarts o s = false -> cchange (s_closed s) (s_closed (fst (step K cfg s o))).
Proof.
  intros H Hr. unfold step. destruct (needs_open o && negb (s_open s)) eqn:En; [apply cchange_refl|].
  destruct o; cbn [fst]; try apply cchange_refl.
  - apply do_write_cc.
  - apply do_delete_cc, H.
  - pose proof (cc_close_active s) as H1. destruct (close_active s) as [s' e]. cbn [fst] in *.
    rewrite closed_request_dump. exact H1.
  - pose proof (cc_create_active s) as H1. destruct (create_active s) as [s' e]. exact H1.
  - pose proof (cc_restore_active s) as H1. destruct (restore_active K s) as [s' e]. exact H1.
  - rewrite closed_request_dump. apply cc_worker, cc_close_active.
  - apply cc_worker, cc_create_active.
  - apply cc_worker, cc_restore_active.
  - rewrite closed_request_dump. destruct (s_alive s && eval_pred pred s); [apply cc_replace_active | apply cchange_refl].
  - rewrite closed_request_dump. apply cchange_refl.
  - apply CSame, quiesce_ge.
  - cbn [restarts] in Hr. cbn [needs_open andb] in En. rewrite Hr in En. discriminate En.
  - cbn [restarts] in Hr. cbn [needs_open andb] in En. rewrite Hr in En. discriminate En.
  - cbn [restarts] in Hr. apply negb_false_iff in Hr. rewrite Hr. apply cchange_refl.
  - apply CSame. cbn [upd_closed s_closed].
    apply (slots_ge_map (fun b => if (b_id b =? id)%N then rm_index b else b)).
    intros b _. destruct (b_id b =? id)%N; apply incl_refl.
  - (* a blob file cut by a crash between two sessions: its key set does not grow (the hierarchy is rebuilt at the
       next open anyway) *)
    apply CSame. rewrite closed_do_cut. destruct keep as [j|]; [|apply slots_ge_refl].
    destruct (s_open s); [apply slots_ge_refl|]. apply (slots_ge_map (cut_blob K id j)).
    intros b _. apply incl_map. intros r Hin. unfold cut_blob in Hin. destruct ((b_id b =? id)%N && cut_applies K j b); [|exact Hin].
    cbn [cut_recs b_recs] in Hin. rewrite <- (firstn_skipn j (b_recs b)). apply in_or_app. left. exact Hin.
Qed.

Theorem step_q_cc s o :
  BlobsOk K s -> restarts o s = false -> cchange (s_closed s) (s_closed (fst (step_q K cfg s o))).
Proof.
  intros H Hr. rewrite step_q_fst. exact (cchange_ge _ _ _ (step_cc s o H Hr) (quiesce_ge _)).
Qed.

End Steps.

Lemma bools_eqb_iff a : forall b, bools_eqb a b = true <-> a = b.
Proof.
  induction a as [|x a IH]; intros [|y b]; cbn [bools_eqb].
  - tauto.
  - split; discriminate.
  - split; discriminate.
  - rewrite andb_true_iff, IH. split.
    + intros [Hx ->]. apply eqb_prop in Hx. subst y. reflexivity.
    + intros [= -> ->]. split; [apply eqb_reflx | reflexivity].
Qed.

Lemma pop_last_occ : forall c b c1, pop_last c = Some (b, c1) -> length c1 = length c /\ occ c1 <> occ c.
Proof.
  induction c as [|x r IH]; intros b c1 Hp; cbn [pop_last] in Hp; [discriminate Hp|].
  destruct (pop_last r) as [[b1 r1]|] eqn:Er.
  - injection Hp as <- <-. destruct (IH _ _ eq_refl) as [Hl Hn]. split; [cbn [length]; rewrite Hl; reflexivity|].
    unfold occ in *. cbn [map]. intros [= E]. exact (Hn E).
  - destruct x as [bx|]; [|discriminate Hp]. injection Hp as <- <-. split; [reflexivity|]. discriminate.
Qed.

Lemma classify_same c c' : slots_ge c c' -> classify c c' = TSame.
Proof.
  intros H. unfold classify. rewrite (proj2 (bools_eqb_iff _ _) (slots_ge_occ _ _ H)). reflexivity.
Qed.

Lemma classify_push c c1 b : slots_ge c c1 -> classify c (c1 ++ [Some b]) = TPush b.
Proof.
  intros H. unfold classify. pose proof (slots_ge_occ _ _ H) as Ho.
  destruct (bools_eqb (occ (c1 ++ [Some b])) (occ c)) eqn:E1.
  - apply bools_eqb_iff in E1. apply (f_equal (@length bool)) in E1.
    rewrite occ_app, app_length, <- Ho in E1. cbn [occ map length] in E1. lia.
  - assert (E2 : occ (c1 ++ [Some b]) = occ c ++ [true]) by (rewrite occ_app, Ho; reflexivity).
    rewrite (proj2 (bools_eqb_iff _ _) E2), last_last. reflexivity.
Qed.

Lemma classify_pop c b c1 c' : pop_last c = Some (b, c1) -> slots_ge c1 c' -> classify c c' = TPop.
Proof.
  intros Hp H. unfold classify. pose proof (slots_ge_occ _ _ H) as Ho. destruct (pop_last_occ _ _ _ Hp) as [Hl Hn].
  destruct (bools_eqb (occ c') (occ c)) eqn:E1.
  - apply bools_eqb_iff in E1. exfalso. apply Hn. rewrite <- Ho. exact E1.
  - destruct (bools_eqb (occ c') (occ c ++ [true])) eqn:E2.
    + apply bools_eqb_iff in E2. apply (f_equal (@length bool)) in E2.
      rewrite Ho, app_length, !occ_length in E2. cbn [length] in E2. lia.
    + rewrite Hp, (proj2 (bools_eqb_iff _ _) Ho). reflexivity.
Qed.

Section Main.
Variable K : N.
Variable bloom0 : option bloom.
Variable cfg : config.
Variable group : nat.

Lemma bloom0_wf_cases :
  bloom0 = None \/ (exists bits hashers c, (bits < 2^64)%N /\ bloom0 = Some (bloom_new bits hashers c)) ->
  bloom0_wf bloom0.
Proof.
  intros [->|(bits & hashers & c & Hb & ->)]; unfold bloom0_wf; [apply cf_new_none_wf | apply cf_new_wf, Hb].
Qed.

(* `track` performs on the hierarchy what the step performed on the slots *)
Lemma track_Tracked s o h :
  bloom0_wf bloom0 -> BlobsOk K s -> Tracked K bloom0 group (s_closed s) h ->
  Tracked K bloom0 group (s_closed (fst (step_q K cfg s o))) (track K bloom0 group o s (fst (step_q K cfg s o)) h).
Proof.
  intros H0 HB HT. unfold track, track_kind. destruct (restarts o s) eqn:Er; [apply Tracked_rebuild, H0|].
  destruct (step_q_cc K cfg s o HB Er) as [Hge|b c1 E Hge|b c1 E Hge].
  - rewrite (classify_same _ _ Hge). eapply Tracked_ge; eassumption.
  - rewrite E, (classify_push _ _ b Hge). apply Tracked_push; [exact H0|]. eapply Tracked_ge; eassumption.
  - rewrite (classify_pop _ _ _ _ E Hge). eapply Tracked_ge; [exact Hge|]. eapply Tracked_pop; eassumption.
Qed.

Lemma freach_snoc evs e : freach K bloom0 cfg group (evs ++ [e]) = fstep K bloom0 cfg group (freach K bloom0 cfg group evs) e.
Proof. unfold freach. rewrite fold_left_app. reflexivity. Qed.

Lemma ops_of_snoc evs e : ops_of (evs ++ [e]) = ops_of evs ++ match e with EOp o => [o] | EOff _ => [] end.
Proof. unfold ops_of. rewrite flat_map_app. cbn [flat_map]. rewrite app_nil_r. reflexivity. Qed.

Lemma freach_storage evs : fst (freach K bloom0 cfg group evs) = reach K cfg (ops_of evs).
Proof.
  induction evs as [|e evs IH] using rev_ind; [reflexivity|].
  rewrite freach_snoc, ops_of_snoc. destruct e as [o|x]; cbn [fstep fst].
  - rewrite reach_snoc, IH. reflexivity.
  - rewrite app_nil_r. exact IH.
Qed.

Lemma freach_Tracked evs :
  bloom0_wf bloom0 ->
  Tracked K bloom0 group (s_closed (fst (freach K bloom0 cfg group evs))) (snd (freach K bloom0 cfg group evs)).
Proof.
  intros H0. induction evs as [|e evs IH] using rev_ind; [apply Tracked_new|].
  rewrite freach_snoc. destruct e as [o|x]; cbn [fstep fst snd].
  - apply track_Tracked; [exact H0 | | exact IH]. rewrite freach_storage. apply reach_Inv.
  - apply Tracked_off, IH.
Qed.

(* under any blob-level check that never rejects a key the blob holds, the filtered paths open every blob that has an
   entry for the key, in the order the filterless paths visit them *)
Lemma freach_opened chk evs k :
  bloom0_wf bloom0 ->
  let s := fst (freach K bloom0 cfg group evs) in
  let h := snd (freach K bloom0 cfg group evs) in
  (forall b, s_active s = Some b -> In k (blob_keys b) -> chk None b k = true) ->
  (forall c b, nth_error (s_closed s) c = Some (Some b) -> In k (blob_keys b) -> In c (ch_iter K h k) ->
               chk (Some c) b k = true) ->
  filter (indexed k) (opened K chk h s k) = filter (indexed k) (newest_first s).
Proof.
  intros H0 s h Hca Hcc. pose proof (freach_Tracked evs H0) as HT. fold s h in HT.
  assert (HI : Inv K s) by (unfold s; rewrite freach_storage; apply reach_Inv).
  destruct HI as [[HBc HBa] _]. apply opened_indexed.
  - intros b Hb. apply (HBc b Hb).
  - intros b Hb. apply (HBa b Hb).
  - eapply tracked_sublist. exact HT.
  - exact Hca.
  - intros c b Hc Hk. destruct (tracked_cover K bloom0 group _ _ c b k H0 HT Hc Hk) as [Hin _].
    split; [exact Hin | apply Hcc; assumption].
Qed.

Theorem filtered_read_with_is_read chk evs k meta :
  bloom0_wf bloom0 ->
  let s := fst (freach K bloom0 cfg group evs) in
  let h := snd (freach K bloom0 cfg group evs) in
  (forall b, s_active s = Some b -> In k (blob_keys b) -> chk None b k = true) ->
  (forall c b, nth_error (s_closed s) c = Some (Some b) -> In k (blob_keys b) -> In c (ch_iter K h k) ->
               chk (Some c) b k = true) ->
  get_latest_entry_filtered_with K chk h s k meta = get_latest_entry s k meta.
Proof.
  intros H0 s h Hca Hcc. subst s h. rewrite latest_opened, get_latest_entry_newest_first.
  rewrite latest_only_indexed, (freach_opened chk evs k H0 Hca Hcc). symmetry. apply latest_only_indexed.
Qed.

(* after every history of storage operations interleaved with offload_buffer calls, the read path that
   consults only the blobs the hierarchy yields for the key, each through its own filter, returns what the filterless
   read returns *)
Theorem filtered_read_is_read evs k meta :
  0 < group -> bloom0_wf bloom0 ->
  let s := fst (freach K bloom0 cfg group evs) in
  let h := snd (freach K bloom0 cfg group evs) in
  get_latest_entry_filtered K bloom0 h s k meta = get_latest_entry s k meta.
Proof.
  intros _ H0 s h. unfold get_latest_entry_filtered. apply filtered_read_with_is_read; try assumption.
  - intros b _ Hk. apply blob_check_sound; assumption.
  - intros c b _ Hk _. apply blob_check_sound; assumption.
Qed.

(* the same with every closed blob asked through the filter stored in its slot of the hierarchy, which offload_buffer
   may have stripped of its bloom buffer *)
Theorem filtered_slot_read_is_read evs k meta :
  0 < group -> bloom0_wf bloom0 ->
  let s := fst (freach K bloom0 cfg group evs) in
  let h := snd (freach K bloom0 cfg group evs) in
  get_latest_entry_filtered_slot K bloom0 h s k meta = get_latest_entry s k meta.
Proof.
  intros _ H0 s h. unfold get_latest_entry_filtered_slot. apply filtered_read_with_is_read; try assumption.
  - intros b _ Hk. apply blob_check_sound; assumption.
  - intros c b Hc Hk _. exact (proj2 (tracked_cover K bloom0 group _ _ c b k H0 (freach_Tracked evs H0) Hc Hk)).
Qed.

Corollary filtered_read_is_spec evs k :
  0 < group -> bloom0_wf bloom0 ->
  let s := fst (freach K bloom0 cfg group evs) in
  let h := snd (freach K bloom0 cfg group evs) in
  get_latest_entry_filtered K bloom0 h s k None = spec_read (abs s) k.
Proof.
  intros Hg H0 s h. unfold s, h. rewrite (filtered_read_is_read evs k None Hg H0).
  rewrite freach_storage. apply reach_read_latest.
Qed.

(* The all-versions read path (Storage::read_all_with_deletion_marker / read_all) goes through the same hierarchy
   iterator, with the blobs asked through their own filter, through the filter stored in their slot, or (as the Rust
   text has it) not at all. A blob that holds no record of the key would have contributed the empty list, which
   `ra_merge` does not see, and the iterator keeps the order of the others: the group filters never hide a version. *)
Theorem filtered_read_all_dm_with_is_read_all_dm chk evs k :
  bloom0_wf bloom0 ->
  let s := fst (freach K bloom0 cfg group evs) in
  let h := snd (freach K bloom0 cfg group evs) in
  (forall b, s_active s = Some b -> In k (blob_keys b) -> chk None b k = true) ->
  (forall c b, nth_error (s_closed s) c = Some (Some b) -> In k (blob_keys b) -> In c (ch_iter K h k) ->
               chk (Some c) b k = true) ->
  read_all_dm_filtered_with K chk h s k = read_all_dm s k.
Proof.
  intros H0 s h Hca Hcc. subst s h. rewrite all_opened, read_all_dm_newest_first.
  rewrite all_only_indexed, (freach_opened chk evs k H0 Hca Hcc). symmetry. apply all_only_indexed.
Qed.

Theorem filtered_read_all_dm_is_read_all_dm evs k :
  0 < group -> bloom0_wf bloom0 ->
  let s := fst (freach K bloom0 cfg group evs) in
  let h := snd (freach K bloom0 cfg group evs) in
  read_all_dm_filtered K bloom0 h s k = read_all_dm s k.
Proof.
  intros _ H0 s h. unfold read_all_dm_filtered. apply filtered_read_all_dm_with_is_read_all_dm; try assumption.
  - intros b _ Hk. apply blob_check_sound; assumption.
  - intros c b _ Hk _. apply blob_check_sound; assumption.
Qed.

Theorem filtered_read_all_is_read_all evs k :
  0 < group -> bloom0_wf bloom0 ->
  let s := fst (freach K bloom0 cfg group evs) in
  let h := snd (freach K bloom0 cfg group evs) in
  read_all_filtered K bloom0 h s k = read_all s k.
Proof.
  intros Hg H0 s h. unfold read_all_filtered, read_all, s, h.
  rewrite (filtered_read_all_dm_is_read_all_dm evs k Hg H0). reflexivity.
Qed.

Theorem filtered_slot_read_all_dm_is_read_all_dm evs k :
  0 < group -> bloom0_wf bloom0 ->
  let s := fst (freach K bloom0 cfg group evs) in
  let h := snd (freach K bloom0 cfg group evs) in
  read_all_dm_filtered_slot K bloom0 h s k = read_all_dm s k.
Proof.
  intros _ H0 s h. unfold read_all_dm_filtered_slot. apply filtered_read_all_dm_with_is_read_all_dm; try assumption.
  - intros b _ Hk. apply blob_check_sound; assumption.
  - intros c b Hc Hk _. exact (proj2 (tracked_cover K bloom0 group _ _ c b k H0 (freach_Tracked evs H0) Hc Hk)).
Qed.

(* hence the all-versions reads answer as the specification does: every record of the key in rank order (timestamp
   descending, then blob recency, then append recency) cut after the first deletion marker *)
Lemma freach_read_all_spec evs k :
  let s := fst (freach K bloom0 cfg group evs) in
  read_all_dm s k = spec_all_dm (abs s) k /\ read_all s k = spec_all (abs s) k.
Proof.
  intros s. unfold s. rewrite freach_storage. split; [apply read_all_dm_spec | apply read_all_spec]; apply reach_IdxInv.
Qed.

Theorem filtered_read_all_is_spec evs k :
  0 < group -> bloom0_wf bloom0 ->
  let s := fst (freach K bloom0 cfg group evs) in
  let h := snd (freach K bloom0 cfg group evs) in
  read_all_dm_filtered K bloom0 h s k = spec_all_dm (abs s) k /\
  read_all_filtered K bloom0 h s k = spec_all (abs s) k.
Proof.
  intros Hg H0 s h. unfold read_all_filtered, s, h. rewrite (filtered_read_all_dm_is_read_all_dm evs k Hg H0).
  apply freach_read_all_spec.
Qed.

Theorem iter_read_all_is_spec evs k :
  0 < group -> bloom0_wf bloom0 ->
  let s := fst (freach K bloom0 cfg group evs) in
  let h := snd (freach K bloom0 cfg group evs) in
  read_all_dm_iter K h s k = spec_all_dm (abs s) k /\ read_all_iter K h s k = spec_all (abs s) k.
Proof.
  intros _ H0 s h. unfold read_all_iter, read_all_dm_iter, s, h.
  rewrite (filtered_read_all_dm_with_is_read_all_dm (fun _ _ _ => true) evs k H0) by reflexivity.
  apply freach_read_all_spec.
Qed.

(* the slots of the storage and of the hierarchy never drift apart: outside session boundaries the step is recognised as
   one of "untouched / push / pop" -- the TRebuild fallback of `classify` is never taken -- and in every reached state
   the two occupancy patterns coincide *)
Theorem track_no_fallback evs o :
  let s := fst (freach K bloom0 cfg group evs) in
  restarts o s = false -> track_kind o s (fst (step_q K cfg s o)) <> TRebuild.
Proof.
  intros s Hr. unfold track_kind. rewrite Hr.
  assert (HB : BlobsOk K s) by (unfold s; rewrite freach_storage; apply reach_Inv).
  destruct (step_q_cc K cfg s o HB Hr) as [Hge|b c1 E Hge|b c1 E Hge].
  - rewrite (classify_same _ _ Hge). discriminate.
  - rewrite E, (classify_push _ _ b Hge). discriminate.
  - rewrite (classify_pop _ _ _ _ E Hge). discriminate.
Qed.

Theorem slots_correspond evs :
  bloom0_wf bloom0 ->
  let s := fst (freach K bloom0 cfg group evs) in
  let h := snd (freach K bloom0 cfg group evs) in
  length (h_children combined h) = length (s_closed s) /\
  forall c, present combined h c = match nth_error (s_closed s) c with Some (Some _) => true | _ => false end.
Proof.
  intros H0 s h. destruct (freach_Tracked evs H0) as (hops & Hh & _ & _ & Hocc). fold s h in Hh, Hocc. split.
  - rewrite <- (map_length isSome), Hocc. apply occ_length.
  - intros c. apply (tracked_present K bloom0 group). exact (freach_Tracked evs H0).
Qed.

(* Storage::check_filters / BloomProvider::check_filter never answer "definitely absent" for a key held by some blob
   of the storage *)
Lemma blob_probe_sound b k : bloom0_wf bloom0 -> In k (blob_keys b) -> blob_probe K bloom0 b k = true.
Proof.
  intros H0 Hk. unfold blob_probe. destruct (b_ondisk b).
  - apply blob_check_sound; assumption.
  - apply existsb_exists. exists k. split; [exact Hk | apply N.eqb_refl].
Qed.

Theorem cf_answer_no_false_negative (s : storage) b k :
  bloom0_wf bloom0 -> (s_active s = Some b \/ In b (closed_blobs s)) -> In k (blob_keys b) ->
  cf_answer K bloom0 s k = true.
Proof.
  intros H0 [Ha|Hc] Hk; unfold cf_answer.
  - rewrite Ha, blob_probe_sound by assumption. reflexivity.
  - apply orb_true_iff. right. apply existsb_exists. exists b. split; [exact Hc | apply blob_probe_sound; assumption].
Qed.

Theorem cfs_answer_no_false_negative evs b k :
  0 < group -> bloom0_wf bloom0 ->
  let s := fst (freach K bloom0 cfg group evs) in
  let h := snd (freach K bloom0 cfg group evs) in
  (s_active s = Some b \/ In b (closed_blobs s)) -> In k (blob_keys b) ->
  cfs_answer K bloom0 h s k = true.
Proof.
  intros _ H0 s h [Ha|Hc] Hk; unfold cfs_answer.
  - rewrite Ha, blob_probe_sound by assumption. reflexivity.
  - apply orb_true_iff. right. rewrite closed_blobs_cb in Hc. apply in_cb, In_nth_error in Hc. destruct Hc as [j Hj].
    apply existsb_exists. exists j. split.
    + exact (proj1 (tracked_cover K bloom0 group _ _ j b k H0 (freach_Tracked evs H0) Hj Hk)).
    + rewrite Hj. apply blob_probe_sound; assumption.
Qed.

End Main.

Print Assumptions filtered_read_with_is_read.
Print Assumptions filtered_read_is_read.
Print Assumptions filtered_slot_read_is_read.
Print Assumptions filtered_read_is_spec.
Print Assumptions track_no_fallback.
Print Assumptions slots_correspond.
Print Assumptions step_q_cc.
Print Assumptions blob_delete_keys.
Print Assumptions cf_answer_no_false_negative.
Print Assumptions cfs_answer_no_false_negative.

(* K = 4, 100-bit blooms, group = 2. Four blobs are closed (keys {1}, {2}, {3,1}, {4}), the last one is restored (pop:
   slot 3 is vacated, its merged filter stays in node 1), offload_buffer(16, 1) drops the bloom buffer of slot 0 and
   returns early, then key 2 is deleted (a marker lands in closed blob 1, which already held key 2).
   For key 3 the iterator yields slot 2 only (node 0, range [1,2], is skipped): ONE blob is opened where the filterless
   read opens three; for key 2, slots 0 and 1 are yielded and blob 0 rejects by its own filter; for key 4 the stale node
   filter yields slot 2 and the blob rejects; key 7 opens nothing. All reads agree with the filterless model.
   After close + lazy open the hierarchy is rebuilt over four occupied slots and the reads still agree. *)
Module Sanity.
  Local Open Scope N_scope.
  Definition ex_cfg : config := {| c_dup := true; c_maxrec := 1000; c_maxsize := 1000000 |}.
  Definition ex_bloom : option bloom := Some (bloom_new 100 2 (repeat 0 40)).
  Definition ex_evs : list fev :=
    [EOp (OOpen false); EOp (OWrite 1 10 None 0 5 1); EOp OCloseActive; EOp (OWrite 2 11 None 0 5 1); EOp OCloseActive;
     EOp (OWrite 3 12 None 0 5 1); EOp (OWrite 1 13 None 0 5 2); EOp OCloseActive; EOp (OWrite 4 14 None 0 5 1);
     EOp OCloseActive; EOp ORestoreActive; EOff (OffN 16 1); EOp (ODelete 2 20 None 0 true)].
  Definition ex_s := fst (freach 4 ex_bloom ex_cfg 2 ex_evs).
  Definition ex_h := snd (freach 4 ex_bloom ex_cfg 2 ex_evs).
  Definition ex_keys : list N := [1; 2; 3; 4; 7].

  Example ex_bloom_wf : bloom0_wf ex_bloom.
  Proof. apply cf_new_wf. reflexivity. Qed.

  Example filtered_nonvacuous :
    occ (s_closed ex_s) = [true; true; true; false] /\
    map blob_keys (closed_blobs ex_s) = [[1]; [2; 2]; [3; 1]] /\
    option_map blob_keys (s_active ex_s) = Some [4] /\
    map (fun k => (ch_iter 4 ex_h k, consulted 4 ex_bloom ex_h ex_s k)) ex_keys =
      [([0; 1; 2], [0; 2]); ([0; 1], [1]); ([2], [2]); ([2], []); ([], [])]%nat /\
    map (fun k => get_latest_entry_filtered 4 ex_bloom ex_h ex_s k None) ex_keys =
      map (fun k => get_latest_entry ex_s k None) ex_keys /\
    map (fun k => get_latest_entry_filtered_slot 4 ex_bloom ex_h ex_s k (Some 0)) ex_keys =
      map (fun k => get_latest_entry ex_s k (Some 0)) ex_keys /\
    get_latest_entry ex_s 2 None = Deleted 20 /\
    rr_ts r_ts (get_latest_entry ex_s 3 None) = Some 12 /\
    get_latest_entry ex_s 7 None = NotFound.
  Proof.
    (* what the filters let through is evaluated; that the filtered reads then agree with the filterless ones is
       the theorem, at this history *)
    do 4 (split; [vm_compute; reflexivity|]).
    split. { apply map_ext. intros k. exact (filtered_read_is_read 4 ex_bloom ex_cfg 2 ex_evs k None Nat.lt_0_2 ex_bloom_wf). }
    split. { apply map_ext. intros k. exact (filtered_slot_read_is_read 4 ex_bloom ex_cfg 2 ex_evs k (Some 0) Nat.lt_0_2 ex_bloom_wf). }
    vm_compute. repeat split.
  Qed.

  (* restart: the hierarchy is rebuilt over the blobs found in the directory *)
  Definition ex_evs2 : list fev := ex_evs ++ [EOp OClose; EOp (OOpen true); EOff OffAll].
  Definition ex_s2 := fst (freach 4 ex_bloom ex_cfg 2 ex_evs2).
  Definition ex_h2 := snd (freach 4 ex_bloom ex_cfg 2 ex_evs2).
  Example filtered_nonvacuous_restart :
    occ (s_closed ex_s2) = [true; true; true; true] /\
    map (fun k => ch_iter 4 ex_h2 k) ex_keys = [[0; 1; 2; 3]; [0; 1; 2; 3]; [2; 3]; [2; 3]; []]%nat /\
    map (fun k => consulted 4 ex_bloom ex_h2 ex_s2 k) ex_keys = [[0; 2]; [1]; [2]; [3]; []]%nat /\
    map (fun k => get_latest_entry_filtered 4 ex_bloom ex_h2 ex_s2 k None) ex_keys =
      map (fun k => get_latest_entry ex_s2 k None) ex_keys.
  Proof.
    do 3 (split; [vm_compute; reflexivity|]).
    apply map_ext. intros k. exact (filtered_read_is_read 4 ex_bloom ex_cfg 2 ex_evs2 k None Nat.lt_0_2 ex_bloom_wf).
  Qed.
End Sanity.

Print Assumptions filtered_read_all_dm_with_is_read_all_dm.
Print Assumptions filtered_read_all_dm_is_read_all_dm.
Print Assumptions filtered_read_all_is_read_all.
Print Assumptions filtered_slot_read_all_dm_is_read_all_dm.
Print Assumptions filtered_read_all_is_spec.
Print Assumptions iter_read_all_is_spec.
