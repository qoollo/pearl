(* The in-memory index. The vector of a key is the stable ascending insertion sort of the key's records; read
   backwards it is the model's sort_desc of the reversed records, so its last element is the top-ranked record. *)
Require Import Pearl.Base.Prelude Pearl.Storage.Model Pearl.Storage.Spec.

Lemma imap_get_put m k v k' : imap_get (imap_put m k v) k' = if k =? k' then Some v else imap_get m k'.
Proof.
  induction m as [|[k0 v0] m IH]; cbn [imap_put imap_get].
  - reflexivity.
  - destruct (N.eqb_spec k k0) as [->|Hne].
    + cbn [imap_get]. destruct (N.eqb_spec k0 k'); reflexivity.
    + destruct (N.ltb_spec k k0).
      * cbn [imap_get]. destruct (N.eqb_spec k k'); reflexivity.
      * cbn [imap_get]. rewrite IH. destruct (N.eqb_spec k0 k') as [->|]; [|reflexivity].
        destruct (N.eqb_spec k k'); [contradiction|reflexivity].
Qed.

Lemma imap_get_push m h k :
  imap_get (imap_push m h) k =
  if r_key h =? k then Some (match imap_get m k with Some v => vec_insert v h | None => [h] end)
  else imap_get m k.
Proof.
  unfold imap_push. destruct (imap_get m (r_key h)) as [v|] eqn:E; rewrite imap_get_put;
    destruct (N.eqb_spec (r_key h) k) as [Hk|Hk]; try reflexivity; subst k; rewrite E; reflexivity.
Qed.

(* the vector of key k in the index built from rs, as a function of the key's records *)
Definition vec_of (rs : list rec) : list rec := fold_left vec_insert rs [].

Lemma of_key_cons k h rs : of_key k (h :: rs) = if r_key h =? k then h :: of_key k rs else of_key k rs.
Proof. reflexivity. Qed.

Lemma imap_get_fold rs : forall m k,
  imap_get (fold_left imap_push rs m) k =
  match of_key k rs with
  | [] => imap_get m k
  | l => Some (fold_left vec_insert l (match imap_get m k with Some v => v | None => [] end))
  end.
Proof.
  induction rs as [|h rs IH]; intros m k; [reflexivity|].
  cbn [fold_left]. rewrite IH, of_key_cons, imap_get_push.
  destruct (N.eqb_spec (r_key h) k) as [Hk|Hk]; [|reflexivity].
  destruct (of_key k rs) as [|x l]; cbn [fold_left]; destruct (imap_get m k); reflexivity.
Qed.

Lemma imap_get_index_of rs k :
  imap_get (index_of rs) k = match of_key k rs with [] => None | l => Some (vec_of l) end.
Proof. unfold index_of. rewrite imap_get_fold. cbn [imap_get]. reflexivity. Qed.

Lemma ins_desc_le x z l : r_ts z <= r_ts x -> ins_desc x (z :: l) = x :: z :: l.
Proof. intros H. cbn [ins_desc]. destruct (N.leb_spec (r_ts z) (r_ts x)); [reflexivity|lia]. Qed.

Lemma ins_desc_gt x z l : r_ts x < r_ts z -> ins_desc x (z :: l) = z :: ins_desc x l.
Proof. intros H. cbn [ins_desc]. destruct (N.leb_spec (r_ts z) (r_ts x)); [lia|reflexivity]. Qed.

Lemma ins_desc_snoc_le h w x : r_ts x <= r_ts h -> ins_desc h (w ++ [x]) = ins_desc h w ++ [x].
Proof.
  intros Hx. induction w as [|y w IH].
  - exact (ins_desc_le h x [] Hx).
  - cbn [app ins_desc]. destruct (r_ts y <=? r_ts h); [reflexivity|]. rewrite IH. reflexivity.
Qed.

Lemma ins_desc_last h w : Forall (fun y => r_ts h < r_ts y) w -> ins_desc h w = w ++ [h].
Proof.
  induction 1 as [|y w Hy Hw IH]; [reflexivity|]. rewrite (ins_desc_gt h y w Hy), IH. reflexivity.
Qed.

Fixpoint sdesc (l : list rec) : Prop :=
  match l with
  | [] => True
  | x :: r => Forall (fun y => r_ts y <= r_ts x) r /\ sdesc r
  end.

Lemma ins_desc_Forall (P : rec -> Prop) x l : P x -> Forall P l -> Forall P (ins_desc x l).
Proof.
  intros Hx Hl. induction Hl as [|y l Hy Hl IH]; cbn [ins_desc]; [repeat constructor; assumption|].
  destruct (r_ts y <=? r_ts x); repeat constructor; assumption.
Qed.

Lemma ins_desc_sdesc x l : sdesc l -> sdesc (ins_desc x l).
Proof.
  induction l as [|y l IH]; cbn [ins_desc sdesc]; [intros _; split; [constructor|exact I]|].
  intros [Hy Hl]. destruct (N.leb_spec (r_ts y) (r_ts x)) as [Hle|Hgt]; cbn [sdesc].
  - split; [|split; assumption]. constructor; [assumption|].
    eapply Forall_impl; [|exact Hy]. cbn beta. intros a Ha. lia.
  - split; [|apply IH; assumption]. apply ins_desc_Forall; [lia|assumption].
Qed.

Lemma sort_desc_sdesc l : sdesc (sort_desc l).
Proof.
  induction l as [|x l IH]; [exact I|].
  change (sort_desc (x :: l)) with (ins_desc x (sort_desc l)). apply ins_desc_sdesc, IH.
Qed.

Lemma sdesc_snoc a x : sdesc (a ++ [x]) -> sdesc a /\ Forall (fun y => r_ts x <= r_ts y) a.
Proof.
  induction a as [|y a IH]; [intros _; split; [exact I|constructor]|].
  cbn [app sdesc]. intros [Hy Ha]. apply Forall_app in Hy. destruct Hy as [Hy Hx]. destruct (IH Ha) as [Hs Hf].
  split; [split; assumption|]. constructor; [apply (Forall_inv Hx)|exact Hf].
Qed.

(* the vector read backwards is in rank order, and an insertion keeps it so *)
Lemma rev_vec_insert v h : sdesc (rev v) -> rev (vec_insert v h) = ins_desc h (rev v).
Proof.
  induction v as [|x r IH]; [reflexivity|]. cbn [rev]. intros Hs. apply sdesc_snoc in Hs. destruct Hs as [Hs Hx].
  cbn [vec_insert]. destruct (N.leb_spec (r_ts x) (r_ts h)) as [Hle|Hgt].
  - cbn [rev]. rewrite IH by exact Hs. symmetry. apply ins_desc_snoc_le. assumption.
  - change (rev (h :: x :: r)) with ((rev r ++ [x]) ++ [h]). symmetry. apply ins_desc_last.
    apply Forall_app. split; [|repeat constructor; assumption].
    eapply Forall_impl; [|exact Hx]. cbn beta. intros a Ha. lia.
Qed.

Lemma rev_vec_of l : rev (vec_of l) = sort_desc (rev l).
Proof.
  induction l as [|h l IH] using rev_ind; [reflexivity|].
  unfold vec_of. rewrite fold_left_app. cbn [fold_left]. fold (vec_of l).
  rewrite rev_vec_insert by (rewrite IH; apply sort_desc_sdesc). rewrite rev_unit, IH. reflexivity.
Qed.

Lemma hd_sort_desc_rev l : hd_error (sort_desc (rev l)) = top_ranked l.
Proof.
  induction l as [|h l IH] using rev_ind; [reflexivity|].
  unfold top_ranked. rewrite rev_unit, fold_left_app. cbn [fold_left]. fold (top_ranked l). rewrite <- IH.
  change (sort_desc (h :: rev l)) with (ins_desc h (sort_desc (rev l))).
  destruct (sort_desc (rev l)) as [|y t]; [reflexivity|]. cbn [ins_desc hd_error pick].
  destruct (r_ts y <=? r_ts h); reflexivity.
Qed.

Lemma idx_get_latest_index_of rs k : idx_get_latest (index_of rs) k = to_rr (top_ranked (of_key k rs)).
Proof.
  unfold idx_get_latest. rewrite imap_get_index_of.
  destruct (of_key k rs) as [|x l]; [reflexivity|].
  rewrite rev_vec_of, <- hd_sort_desc_rev. destruct (sort_desc (rev (x :: l))); reflexivity.
Qed.

Definition newer (x y : option rec) : option rec :=
  match y with
  | None => x
  | Some yb => match x with Some xa => if r_ts xa <=? r_ts yb then y else x | None => y end
  end.

Lemma pick_newer acc x : pick acc x = newer acc (Some x).
Proof. destruct acc; reflexivity. Qed.

Lemma newer_le a b : r_ts a <= r_ts b -> newer (Some a) (Some b) = Some b.
Proof. intros H. cbn [newer]. destruct (N.leb_spec (r_ts a) (r_ts b)); [reflexivity|lia]. Qed.

Lemma newer_gt a b : r_ts b < r_ts a -> newer (Some a) (Some b) = Some a.
Proof. intros H. cbn [newer]. destruct (N.leb_spec (r_ts a) (r_ts b)); [lia|reflexivity]. Qed.

Lemma newer_pick acc x Y : newer (pick acc x) Y = newer acc (newer (Some x) Y).
Proof.
  destruct Y as [y|]; [|apply pick_newer].
  destruct acc as [a|]; [|cbn [pick newer]; destruct (r_ts x <=? r_ts y); reflexivity].
  rewrite pick_newer.
  destruct (N.le_gt_cases (r_ts a) (r_ts x)) as [Hax|Hax], (N.le_gt_cases (r_ts x) (r_ts y)) as [Hxy|Hxy].
  - rewrite (newer_le a x), (newer_le x y), (newer_le a y) by lia. reflexivity.
  - rewrite (newer_le a x), (newer_gt x y), (newer_le a x) by lia. reflexivity.
  - rewrite (newer_gt a x), (newer_le x y) by lia. reflexivity.
  - rewrite (newer_gt a x), (newer_gt x y), (newer_gt a x) by lia. apply newer_gt. lia.
Qed.

Lemma fold_pick_newer b : forall acc, fold_left pick b acc = newer acc (fold_left pick b None).
Proof.
  induction b as [|x b IH]; intros acc; cbn [fold_left]; [destruct acc; reflexivity|].
  rewrite IH. cbn [pick]. rewrite (IH (Some x)). apply newer_pick.
Qed.

Lemma top_ranked_app a b : top_ranked (a ++ b) = newer (top_ranked a) (top_ranked b).
Proof. unfold top_ranked. rewrite fold_left_app. apply fold_pick_newer. Qed.

Lemma of_key_app k a b : of_key k (a ++ b) = of_key k a ++ of_key k b.
Proof. apply filter_app. Qed.

Lemma of_key_other r k : r_key r <> k -> of_key k [r] = [].
Proof. intros H. cbn [of_key filter]. destruct (N.eqb_spec (r_key r) k); [contradiction|reflexivity]. Qed.

(* the result is a record of the list with maximal timestamp, and among those the last one *)
Lemma top_ranked_spec l :
  match top_ranked l with
  | None => l = []
  | Some r => exists l1 l2, l = l1 ++ r :: l2 /\
              (forall x, In x l1 -> r_ts x <= r_ts r) /\ (forall x, In x l2 -> r_ts x < r_ts r)
  end.
Proof.
  induction l as [|h l IH] using rev_ind; [reflexivity|].
  rewrite top_ranked_app. change (top_ranked [h]) with (Some h). cbn [newer].
  destruct (top_ranked l) as [r|].
  - destruct IH as (l1 & l2 & -> & H1 & H2). destruct (N.leb_spec (r_ts r) (r_ts h)) as [Hle|Hgt].
    + exists (l1 ++ r :: l2), []. split; [reflexivity|]. split; [|intros x []].
      intros x Hx. apply in_app_or in Hx. destruct Hx as [Hx|[<-|Hx]]; [specialize (H1 x Hx); lia|lia|specialize (H2 x Hx); lia].
    + exists l1, (l2 ++ [h]). split; [rewrite <- app_assoc; reflexivity|]. split; [assumption|].
      intros x Hx. apply in_app_or in Hx. destruct Hx as [Hx|[<-|[]]]; [apply H2, Hx|lia].
  - subst l. exists [], []. split; [reflexivity|]. split; intros x [].
Qed.

(* a read of key k looks at the entry of k in each index, nothing else *)
Lemma blob_get_latest_ext m m' k meta :
  imap_get m' k = imap_get m k -> blob_get_latest m' k meta = blob_get_latest m k meta.
Proof.
  intros H. destruct meta as [mt|]; cbn [blob_get_latest].
  - unfold blob_get_with_meta, idx_get_all_dm. rewrite H. reflexivity.
  - unfold idx_get_latest. rewrite H. reflexivity.
Qed.

Lemma blob_get_latest_nil k meta : blob_get_latest [] k meta = NotFound.
Proof. destruct meta; reflexivity. Qed.
