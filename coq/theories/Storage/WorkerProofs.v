(* C13: the background maintenance worker of the L3 storage model (Model.v).
   - the worker survives every operation except the end of the session; in particular a background request
     that cannot apply is logged and changes nothing (commit 62103db of the code; a worker killed by such a
     request, finding F1, would stop rotating blobs for the rest of the session);
   - hence after every history an open storage has a live worker;
   - with a live worker a write that fills the (aged) active blob rotates to a fresh blob;
   - requested index dumps are complete at the quiescence point;
   - close returns and leaves only files. *)
Require Import Pearl.Base.Prelude Pearl.Storage.Model Pearl.Storage.Spec Pearl.Storage.Inv Pearl.Storage.InvProofs
               Pearl.Storage.Theorems.

Lemma alive_upd_dump_req s d : s_alive (upd_dump_req s d) = s_alive s. Proof. reflexivity. Qed.
Lemma alive_upd_aged s a : s_alive (upd_aged s a) = s_alive s. Proof. reflexivity. Qed.
Lemma alive_push_closed s b : s_alive (push_closed s b) = s_alive s. Proof. reflexivity. Qed.

Section K.
Variable K : N.
Variable cfg : config.

Lemma alive_dump_all_closed s : s_alive (dump_all_closed K s) = s_alive s.
Proof. reflexivity. Qed.

Lemma alive_quiesce s : s_alive (quiesce K s) = s_alive s.
Proof. apply frame_alive, frame_quiesce. Qed.

(* the background requests that cannot apply in the current state *)
Definition inapplicable (s : storage) (o : op) : Prop :=
  match o with
  | OBgClose => s_active s = None
  | OBgCreate => s_active s <> None
  | OBgRestore => s_active s <> None \/ pop_last (s_closed s) = None
  | _ => False
  end.
Definition ends_session (o : op) : Prop := o = OClose \/ o = ODrop.

Theorem alive_preserved : forall s o,
  s_open s = true -> s_alive s = true -> ~ ends_session o ->
  s_alive (fst (step_q K cfg s o)) = true.
Proof.
  intros s o Ho Ha Hend. rewrite step_q_fst, alive_quiesce.
  rewrite (frame_alive _ _ (frame_session K cfg s o Ho (fun E => Hend (or_introl E)) (fun E => Hend (or_intror E)))).
  exact Ha.
Qed.

(* a background request made when it cannot apply changes nothing: the state before the implicit quiesce is the
   state it was made in, except that a close request still asks for the index dumps (as every close request
   does, TryDumpBlobIndexes being sent whatever the outcome) *)
Lemma inapplicable_step : forall s o,
  s_open s = true -> inapplicable s o ->
  fst (step K cfg s o) = match o with OBgClose => request_dump s | _ => s end.
Proof.
  intros s o Ho Hin. rewrite (step_open K cfg s o Ho).
  destruct o; cbn [inapplicable] in Hin; try contradiction; cbn [fst]; unfold worker.
  - unfold close_active. rewrite Hin. destruct (s_alive s); reflexivity.
  - unfold create_active. destruct (s_active s); [|congruence]. destruct (s_alive s); reflexivity.
  - unfold restore_active. destruct (s_active s); [destruct (s_alive s); reflexivity|].
    destruct Hin as [Hin|Hin]; [congruence|]. rewrite Hin. destruct (s_alive s); reflexivity.
Qed.

Theorem inapplicable_harmless : forall s o,
  s_open s = true -> s_alive s = true -> inapplicable s o ->
  s_alive (fst (step_q K cfg s o)) = true /\ abs (fst (step_q K cfg s o)) = abs s.
Proof.
  intros s o Ho Ha Hin. split.
  - apply alive_preserved; [exact Ho|exact Ha|].
    intros [E|E]; subst o; exact Hin.
  - rewrite step_q_fst, (quiesce_abs K), (inapplicable_step s o Ho Hin).
    destruct o; try reflexivity. apply abs_request_dump.
Qed.

Theorem inapplicable_reads : forall s o k meta,
  s_open s = true -> inapplicable s o ->
  get_latest_entry (fst (step K cfg s o)) k meta = get_latest_entry s k meta.
Proof.
  intros s o k meta Ho Hin. rewrite (inapplicable_step s o Ho Hin).
  destruct o; try reflexivity. unfold request_dump. destruct (s_alive s); reflexivity.
Qed.

(* the caller is told nothing: the failure is only logged *)
Theorem inapplicable_silent : forall s o,
  s_open s = true -> inapplicable s o -> snd (step_q K cfg s o) = RUnit.
Proof.
  intros s o Ho Hin. rewrite step_q_snd, (step_open K cfg s o Ho).
  destruct o; cbn [inapplicable] in Hin; try contradiction; reflexivity.
Qed.

(* only OOpen starts a worker, and OOpen is refused while a session is open; no history leads to an open storage
   with a dead worker (alive_after_every_history) *)
Theorem dead_stays_dead : forall s o,
  s_open s = true -> s_alive s = false -> s_alive (fst (step_q K cfg s o)) = false.
Proof.
  intros s o Ho Ha. rewrite step_q_fst, alive_quiesce.
  assert (Hs : o <> OClose -> o <> ODrop -> s_alive (fst (step K cfg s o)) = false).
  { intros Hc Hd. rewrite (frame_alive _ _ (frame_session K cfg s o Ho Hc Hd)). exact Ha. }
  destruct o; try (apply Hs; discriminate); rewrite (step_open K cfg s _ Ho); reflexivity.
Qed.

Theorem open_alive : forall s lazy, s_open s = false -> s_alive (fst (step_q K cfg s (OOpen lazy))) = true.
Proof.
  intros s lazy Ho. rewrite step_q_fst, alive_quiesce.
  unfold step. cbn [needs_open andb]. rewrite Ho. cbn [fst].
  destruct (do_open_shape K (closed_blobs s) (s_bad s) (s_quar s) (s_corrupted s) lazy (s_f2 s)) as (a & r & n & -> & _). reflexivity.
Qed.

(* the worker is started by open (do_open) and stopped only by close / drop (closed_state) *)
Definition AliveWhenOpen (s : storage) : Prop := s_open s = true -> s_alive s = true.

Lemma step_q_AliveWhenOpen s o : AliveWhenOpen s -> AliveWhenOpen (fst (step_q K cfg s o)).
Proof.
  intros Hs Ho'. destruct (s_open s) eqn:Ho.
  - assert (Hend : ~ ends_session o).
    { intros [E|E]; subst o; rewrite step_q_fst, open_quiesce, (step_open K cfg s _ Ho) in Ho'; discriminate Ho'. }
    apply alive_preserved; [exact Ho|apply Hs, Ho|exact Hend].
  - rewrite step_q_fst, open_quiesce in Ho'. destruct (step_opens K cfg s o Ho Ho') as [lazy ->]. apply open_alive, Ho.
Qed.

(* after EVERY history: a storage that is open has a live worker (no side condition) *)
Theorem alive_after_every_history : forall ops,
  s_open (reach K cfg ops) = true -> s_alive (reach K cfg ops) = true.
Proof.
  intros ops. apply (run_lift K cfg AliveWhenOpen step_q_AliveWhenOpen ops init_storage). intros H. discriminate H.
Qed.

(* `c_dup cfg = true` makes the duplicate check vacuous (with `c_dup = false` an existing live version of the key turns
   the write into a no-op) *)
Theorem rotation_happens : forall s k ts meta msize dlen dseed b b',
  s_open s = true -> s_alive s = true -> s_aged s = true -> s_active s = Some b ->
  c_dup cfg = true ->
  blob_append b (mk_rec k ts false meta msize dlen dseed) = (b', true) ->
  blob_full K cfg b' = true ->
  let s' := fst (step K cfg s (OWrite k ts meta msize dlen dseed)) in
  (exists nb, s_active s' = Some nb /\ b_id nb = s_next s /\ b_recs nb = []) /\
  In (Some b') (s_closed s') /\ s_next s' = s_next s + 1.
Proof.
  intros s k ts meta msize dlen dseed b b' Ho Ha Hg Hact Hdup Happ Hfull s'.
  subst s'. rewrite (step_open K cfg s _ Ho). unfold do_write, ensure_active.
  rewrite Hact, Hdup. cbn [negb andb]. rewrite Hact, Happ.
  unfold maybe_rotate. cbn [fst upd_active s_active s_aged s_alive].
  rewrite Hfull, Hg, Ha. cbn [andb].
  unfold request_dump. cbn [replace_active upd_active s_alive]. rewrite Ha.
  cbn [upd_dump_req upd_active s_active s_closed s_next push_closed upd_closed].
  split; [|split].
  - exists (new_blob (s_next s)). repeat split.
  - apply in_or_app. right. left. reflexivity.
  - reflexivity.
Qed.

(* the counterpart: with a dead worker the same write does not rotate *)
Theorem no_rotation_when_dead : forall s k ts meta msize dlen dseed b,
  s_open s = true -> s_alive s = false -> s_active s = Some b ->
  let s' := fst (step K cfg s (OWrite k ts meta msize dlen dseed)) in
  s_next s' = s_next s /\ s_closed s' = s_closed s.
Proof.
  intros s k ts meta msize dlen dseed b Ho Ha Hact s'. subst s'.
  rewrite (step_open K cfg s _ Ho). unfold do_write, ensure_active. rewrite Hact. cbv zeta. rewrite Hact.
  destruct (negb (c_dup cfg) && is_found (get_latest_entry s k meta)); [split; reflexivity|].
  destruct (blob_append b _) as [b' ok]. destruct ok; cbn [fst]; [|split; reflexivity].
  unfold maybe_rotate. cbn [upd_active s_active s_aged s_alive]. rewrite Ha, andb_false_r.
  split; reflexivity.
Qed.

Lemma blob_dump_done b : b_ondisk (blob_dump K b) = true \/ b_idx (blob_dump K b) = [].
Proof.
  unfold blob_dump. destruct (b_ondisk b) eqn:E; [left; exact E|].
  destruct (b_idx b) eqn:Ei; [right; exact Ei | left; reflexivity].
Qed.

Theorem dumps_complete : forall s,
  s_alive s = true -> s_dump_req s = true ->
  forall b, In (Some b) (s_closed (quiesce K s)) -> b_ondisk b = true \/ b_idx b = [].
Proof.
  intros s Ha Hd b Hin. unfold quiesce in Hin. rewrite Ha, Hd in Hin.
  cbn [andb upd_dump_req dump_all_closed upd_closed s_closed] in Hin.
  apply in_map_iff in Hin. destruct Hin as [[b0|] [Heq _]]; [|discriminate].
  injection Heq as <-. apply blob_dump_done.
Qed.

Theorem quiesce_discharges : forall s, s_alive s = true -> s_dump_req (quiesce K s) = false.
Proof.
  intros s Ha. unfold quiesce. rewrite Ha. cbn [andb].
  destruct (s_dump_req s) eqn:E; [reflexivity | exact E].
Qed.

Theorem close_returns : forall s, s_open s = true ->
  snd (step_q K cfg s OClose) = RUnit /\ s_open (fst (step_q K cfg s OClose)) = false.
Proof.
  intros s Ho. rewrite step_q_snd, step_q_fst, (step_open K cfg s OClose Ho). cbn [fst snd].
  split; reflexivity.
Qed.

(* "leaves only files": no blob object, no worker, nothing pending *)
Theorem close_only_files : forall s, s_open s = true ->
  let s' := fst (step_q K cfg s OClose) in
  s_active s' = None /\ s_alive s' = false /\ s_dump_req s' = false /\
  closed_blobs s' = do_close K s.
Proof.
  intros s Ho s'. subst s'. rewrite step_q_fst, (step_open K cfg s OClose Ho). cbn [fst].
  unfold quiesce. cbn [closed_state s_alive andb s_active s_dump_req].
  repeat split. apply closed_blobs_closed_state.
Qed.

End K.

(* open a fresh directory (an active blob exists), then a background "create active blob" request: it cannot apply and
   is ignored; afterwards exceeding the record limit (1) rotates as it does without the request (with a dead worker
   next_blob_id would stay 1 and both records sit in the blob 0) *)
Example F1_repaired :
  let cfg := {| c_dup := true; c_maxrec := 1; c_maxsize := 1000000 |} in
  let s := fst (run 4 cfg init_storage [OOpen false; OBgCreate; OSleep; OWrite 1 7 None 8 5 1; OSleep; OWrite 1 8 None 8 5 2]) in
  s_alive s = true /\ s_next s = 3.
Proof. vm_compute. split; reflexivity. Qed.

(* control: the same script without the inapplicable request rotates (twice: next_blob_id = 3) *)
Example F1_control :
  let cfg := {| c_dup := true; c_maxrec := 1; c_maxsize := 1000000 |} in
  let s := fst (run 4 cfg init_storage [OOpen false; OSleep; OWrite 1 7 None 8 5 1; OSleep; OWrite 1 8 None 8 5 2]) in
  s_alive s = true /\ s_next s = 3.
Proof. vm_compute. split; reflexivity. Qed.

Print Assumptions alive_preserved.
Print Assumptions inapplicable_harmless.
Print Assumptions inapplicable_reads.
Print Assumptions alive_after_every_history.
Print Assumptions inapplicable_silent.
Print Assumptions dead_stays_dead.
Print Assumptions open_alive.
Print Assumptions rotation_happens.
Print Assumptions no_rotation_when_dead.
Print Assumptions dumps_complete.
Print Assumptions quiesce_discharges.
Print Assumptions close_returns.
Print Assumptions close_only_files.
Print Assumptions F1_repaired.
Print Assumptions F1_control.
