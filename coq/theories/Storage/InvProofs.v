(* Preservation of the invariants of Inv.v by every operation of the L3 storage model: each invariant is kept by the
   moves the operations are made of (StepProofs.v), hence by every step and every history.

   The log of an `open` needs NoActiveWhenClosed: `step s (OOpen l)` on a closed storage re-reads the closed blobs only,
   so an active blob object held by a closed storage would vanish with its records.  IdsOk and BlobsOk do not exclude
   such a state; NoActiveWhenClosed does.  IdsOk is used for `open` only: on a closed storage sort_by_id is the identity
   on id-ordered files, and an open storage has no unreadable file.

   The ghost flag s_f2 (finding F2) marks a write that appended its bytes to a blob whose index is on disk and then
   failed with ErrorKind::Index; the blobs are well formed unless it is raised.  It never is: restore_active installs
   blob_load_index b (commit ad9222f of the code), as do_open does for the last blob, so the active blob's index is
   never on disk (ActiveInMemory), under which no step raises the flag or answers ErrorKind::Index and every write is
   acknowledged.

   Crash damage and quarantine (OCut, s_bad, s_quar): the quarantine fields are touched by `open` and by OCut only; a
   boundary cut keeps blob_ok because it never goes below the size an index file records (cut_applies); `open` drops
   the records of the unreadable files. *)
Require Import Pearl.Base.Prelude Pearl.Storage.Model Pearl.Storage.Spec Pearl.Storage.Inv.
Require Export Pearl.Storage.StepProofs.

Definition cb (l : list (option blob)) : list blob :=
  flat_map (fun o => match o with Some b => [b] | None => [] end) l.

Lemma closed_blobs_cb s : closed_blobs s = cb (s_closed s).
Proof. reflexivity. Qed.

Lemma cb_app l1 l2 : cb (l1 ++ l2) = cb l1 ++ cb l2.
Proof. apply flat_map_app. Qed.

Lemma cb_cons_some b l : cb (Some b :: l) = b :: cb l.
Proof. reflexivity. Qed.

Lemma cb_cons_none l : cb (None :: l) = cb l.
Proof. reflexivity. Qed.

Lemma in_cb l b : In b (cb l) <-> In (Some b) l.
Proof.
  induction l as [|[x|] l IH].
  - split; intros [].
  - rewrite cb_cons_some. cbn [In]. rewrite IH. split; intros [H|H]; auto; left; congruence.
  - rewrite cb_cons_none. cbn [In]. rewrite IH. split; [auto|]. intros [H|H]; [discriminate|assumption].
Qed.

Lemma cb_map_Some l : cb (map Some l) = l.
Proof. induction l as [|x l IH]; [reflexivity|]. cbn [map]. rewrite cb_cons_some, IH. reflexivity. Qed.

Lemma cb_map_some_f (f : blob -> blob) l : cb (map (fun b => Some (f b)) l) = map f l.
Proof. rewrite <- (map_map f Some). apply cb_map_Some. Qed.

Lemma cb_map_opt (f : blob -> blob) l :
  cb (map (fun o => match o with Some b => Some (f b) | None => None end) l) = map f (cb l).
Proof.
  induction l as [|[x|] l IH]; [reflexivity| |].
  - cbn [map]. rewrite !cb_cons_some. cbn [map]. rewrite IH. reflexivity.
  - cbn [map]. rewrite !cb_cons_none. exact IH.
Qed.

Lemma flat_map_recs_ext (f : blob -> blob) l :
  (forall b, b_recs (f b) = b_recs b) -> flat_map b_recs (map f l) = flat_map b_recs l.
Proof.
  intros H. induction l as [|x l IH]; [reflexivity|]. cbn [map flat_map]. rewrite H, IH. reflexivity.
Qed.

Lemma map_id_ext (f : blob -> blob) l :
  (forall b, b_id (f b) = b_id b) -> map b_id (map f l) = map b_id l.
Proof. intros H. rewrite map_map. apply map_ext, H. Qed.

Lemma Forall2_in_l {A B} (R : A -> B -> Prop) l l' : Forall2 R l l' -> forall a, In a l -> exists b, In b l' /\ R a b.
Proof.
  induction 1 as [|x y l l' Hxy _ IH]; intros a Ha; [destruct Ha|]. destruct Ha as [<-|Ha].
  - exists y. split; [left; reflexivity|exact Hxy].
  - destruct (IH a Ha) as (b & Hb & E). exists b. split; [right; exact Hb|exact E].
Qed.

Lemma Forall2_in_r {A B} (R : A -> B -> Prop) l l' : Forall2 R l l' -> forall b, In b l' -> exists a, In a l /\ R a b.
Proof.
  induction 1 as [|x y l l' Hxy _ IH]; intros b Hb; [destruct Hb|]. destruct Hb as [<-|Hb].
  - exists x. split; [left; reflexivity|exact Hxy].
  - destruct (IH b Hb) as (a & Ha & E). exists a. split; [right; exact Ha|exact E].
Qed.

Lemma pop_last_none l : pop_last l = None -> cb l = [].
Proof.
  induction l as [|z l IHl]; intros P; [reflexivity|]. cbn [pop_last] in P.
  destruct (pop_last l) as [[b1 r1]|]; [discriminate|]. destruct z; [discriminate|].
  rewrite cb_cons_none. apply IHl. reflexivity.
Qed.

Lemma pop_last_cb l : forall b c, pop_last l = Some (b, c) -> cb l = cb c ++ [b].
Proof.
  induction l as [|x l IH]; intros b c E; cbn [pop_last] in E; [discriminate|].
  destruct (pop_last l) as [[b1 r1]|] eqn:P.
  - injection E as E1 E2. subst b1 c. specialize (IH _ _ eq_refl).
    destruct x as [y|]; [rewrite !cb_cons_some|rewrite !cb_cons_none]; rewrite IH; reflexivity.
  - destruct x as [y|]; [|discriminate]. injection E as E1 E2. subst y c.
    rewrite cb_cons_some, cb_cons_none, (pop_last_none l P). reflexivity.
Qed.

Lemma pop_last_in l b c : pop_last l = Some (b, c) ->
  In (Some b) l /\ forall x, In (Some x) c -> In (Some x) l.
Proof.
  intros E. apply pop_last_cb in E. split.
  - apply in_cb. rewrite E. apply in_or_app. right. left. reflexivity.
  - intros x Hx. apply in_cb. rewrite E. apply in_or_app. left. apply in_cb. exact Hx.
Qed.

Lemma in_insert_by_id x b l : In x (insert_by_id b l) <-> x = b \/ In x l.
Proof.
  induction l as [|y l IH]; cbn [insert_by_id].
  - cbn [In]. split; intros [H|H]; auto.
  - destruct (b_id b <? b_id y).
    + cbn [In]. split; intros [H|H]; auto.
    + cbn [In]. rewrite IH. split; intros [H|[H|H]]; auto.
Qed.

Lemma in_sort_by_id x l : In x (sort_by_id l) <-> In x l.
Proof.
  unfold sort_by_id. induction l as [|y l IH]; cbn [fold_right]; [reflexivity|].
  rewrite in_insert_by_id, IH. cbn [In]. split; intros [H|H]; auto.
Qed.

Lemma increasing_tail x l : increasing (x :: l) -> increasing l.
Proof. intros [_ H]. exact H. Qed.

Lemma sort_by_id_increasing l : increasing (map b_id l) -> sort_by_id l = l.
Proof.
  unfold sort_by_id. induction l as [|x l IH]; intros H; [reflexivity|].
  cbn [fold_right]. cbn [map] in H. rewrite IH by (apply (increasing_tail _ _ H)).
  destruct l as [|y l]; [reflexivity|]. cbn [map increasing] in H. destruct H as [Hlt _].
  cbn [insert_by_id]. apply N.ltb_lt in Hlt. rewrite Hlt. reflexivity.
Qed.

Lemma max_ids_fold l : forall a, exists m,
  fold_left (fun a i => match a with Some m => Some (N.max m i) | None => Some i end) l (Some a) = Some m
  /\ a <= m /\ forall i, In i l -> i <= m.
Proof.
  induction l as [|x l IH]; intros a; cbn [fold_left].
  - exists a. split; [reflexivity|]. split; [lia|]. intros i [].
  - destruct (IH (N.max a x)) as (m & E & Ha & Hl). exists m. split; [exact E|]. split; [lia|].
    intros i [<-|Hi]; [lia|apply Hl, Hi].
Qed.

Lemma next_above_bound l i : In i l -> i < next_above l.
Proof.
  destruct l as [|x l]; intros Hi; [destruct Hi|]. unfold next_above, max_ids. cbn [fold_left].
  destruct (max_ids_fold l x) as (m & E & Ha & Hl). rewrite E.
  destruct Hi as [<-|Hi]; [lia|]. specialize (Hl _ Hi). lia.
Qed.

Lemma max_id_ids l : max_id l = max_ids (map b_id l).
Proof.
  unfold max_id, max_ids. generalize (@None N).
  induction l as [|x l IH]; intros a; [reflexivity|]. cbn [map fold_left]. apply IH.
Qed.

Lemma max_id_bound l b :
  In b l -> b_id b < match max_id l with Some m => m + 1 | None => 0 end.
Proof. intros Hb. rewrite max_id_ids. apply (next_above_bound (map b_id l)), in_map, Hb. Qed.

Lemma increasing_head_lt x l : increasing (x :: l) -> forall y, In y l -> x < y.
Proof.
  revert x. induction l as [|z l IH]; intros x H y Hy; [destruct Hy|].
  cbn [increasing] in H. destruct H as [Hxz Hr]. destruct Hy as [<-|Hy]; [exact Hxz|].
  specialize (IH z Hr y Hy). lia.
Qed.

Lemma increasing_NoDup l : increasing l -> NoDup l.
Proof.
  induction l as [|x r IH]; intros H; constructor.
  - intros Hin. pose proof (increasing_head_lt x r H x Hin). lia.
  - apply IH. apply (increasing_tail x r H).
Qed.

Lemma nodup_id_inj l a b : NoDup (map b_id l) -> In a l -> In b l -> b_id a = b_id b -> a = b.
Proof.
  induction l as [|x r IH]; intros ND Ha Hb E; [destruct Ha|].
  cbn [map] in ND. inversion ND as [|? ? Hnin ND']; subst.
  destruct Ha as [<-|Ha], Hb as [<-|Hb]; auto.
  - exfalso. apply Hnin. rewrite E. apply in_map, Hb.
  - exfalso. apply Hnin. rewrite <- E. apply in_map, Ha.
Qed.

Lemma increasing_cons x l : increasing l -> (forall y, In y l -> x < y) -> increasing (x :: l).
Proof.
  intros Hi Hx. cbn [increasing]. split; [|exact Hi]. destruct l as [|y l]; [exact I|]. apply Hx. left. reflexivity.
Qed.

Lemma increasing_filter (p : blob -> bool) l : increasing (map b_id l) -> increasing (map b_id (filter p l)).
Proof.
  induction l as [|x l IH]; intros H; [exact I|]. cbn [map] in H. cbn [filter].
  pose proof (increasing_head_lt _ _ H) as Hlt. destruct H as [_ Hr]. specialize (IH Hr).
  destruct (p x); [|exact IH]. cbn [map]. apply increasing_cons; [exact IH|].
  intros y Hy. apply Hlt. apply in_map_iff in Hy. destruct Hy as (b & <- & Hb). apply in_map.
  apply filter_In in Hb. apply Hb.
Qed.

Lemma increasing_app_l l1 l2 : increasing (l1 ++ l2) -> increasing l1.
Proof.
  induction l1 as [|x l1 IH]; intros H; [exact I|]. cbn [app increasing] in H. destruct H as [Hx Hr].
  cbn [increasing]. split; [|apply IH, Hr]. destruct l1 as [|y l1]; [exact I|exact Hx].
Qed.

Lemma increasing_snoc l x : increasing l -> (forall i, In i l -> i < x) -> increasing (l ++ [x]).
Proof.
  induction l as [|y l IH]; intros Hi Hb; cbn [app increasing]; [auto|].
  destruct Hi as [Hy Hr]. split.
  - destruct l as [|z l]; cbn [app]; [apply Hb; left; reflexivity|exact Hy].
  - apply IH; [exact Hr|]. intros i Hin. apply Hb. right. exact Hin.
Qed.

Section K.
Variable K : N.
Variable cfg : config.

Lemma blob_size_size_of b : blob_size K b = size_of K (b_recs b).
Proof. reflexivity. Qed.

Lemma rec_size_pos r : 0 < rec_size K r.
Proof. unfold rec_size, rhs. lia. Qed.

Lemma fold_size_ge l : forall a, a <= fold_left (fun a r => a + rec_size K r) l a.
Proof.
  induction l as [|x l IH]; intros a; cbn [fold_left]; [lia|].
  specialize (IH (a + rec_size K x)). pose proof (rec_size_pos x). lia.
Qed.

Lemma fold_size_gt l : l <> [] -> forall a, a < fold_left (fun a r => a + rec_size K r) l a.
Proof.
  destruct l as [|x l]; intros Hne a; [contradiction|]. cbn [fold_left].
  pose proof (fold_size_ge l (a + rec_size K x)). pose proof (rec_size_pos x). lia.
Qed.

Lemma size_of_firstn_mono n j l : (n <= length l)%nat ->
  size_of K (firstn n l) <= size_of K (firstn j l) -> (n <= j)%nat.
Proof.
  intros Hn Hs. destruct (Nat.le_gt_cases n j) as [Hle|Hgt]; [exact Hle|exfalso].
  assert (E : firstn n l = firstn j l ++ skipn j (firstn n l)).
  { rewrite <- (firstn_skipn j (firstn n l)) at 1. rewrite firstn_firstn. replace (Init.Nat.min j n) with j by lia. reflexivity. }
  rewrite E in Hs. unfold size_of in Hs. rewrite fold_left_app in Hs.
  assert (Hne : skipn j (firstn n l) <> []).
  { intros E0. apply (f_equal (@length rec)) in E0. rewrite skipn_length, firstn_length in E0. cbn [length] in E0. lia. }
  pose proof (fold_size_gt _ Hne (fold_left (fun a r => a + rec_size K r) (firstn j l) BLOB_HEADER_SIZE)). lia.
Qed.

Lemma size_of_firstn_full n l : size_of K (firstn n l) = size_of K l -> firstn n l = l.
Proof.
  intros H. apply firstn_all2, (size_of_firstn_mono (length l) n l); [apply Nat.le_refl|].
  rewrite firstn_all, H. apply N.le_refl.
Qed.

Lemma index_of_snoc rs r : index_of (rs ++ [r]) = imap_push (index_of rs) r.
Proof. unfold index_of. rewrite fold_left_app. reflexivity. Qed.

Lemma blob_ok_new id : blob_ok K (new_blob id).
Proof. split; [reflexivity|exact I]. Qed.

Lemma idxfile_full b sz m : idxfile_ok K b -> b_idxfile b = Some (sz, m) -> sz = blob_size K b -> m = index_of (b_recs b).
Proof.
  unfold idxfile_ok. intros Hf E Hsz. rewrite E in Hf. destruct Hf as (n & Hn & Hs & Hm).
  rewrite blob_size_size_of in Hsz. rewrite Hs in Hsz. apply size_of_firstn_full in Hsz. rewrite Hsz in Hm. exact Hm.
Qed.

Lemma idxfile_ok_ext b b' :
  b_recs b' = b_recs b -> b_idxfile b' = b_idxfile b -> idxfile_ok K b -> idxfile_ok K b'.
Proof. unfold idxfile_ok. intros -> ->. auto. Qed.

Lemma blob_append_ok b r b' : blob_ok K b -> blob_append b r = (b', true) -> blob_ok K b'.
Proof.
  intros [Hi Hf] E. unfold blob_append in E. destruct (b_ondisk b) eqn:D; [discriminate|].
  injection E as E. subst b'. split.
  - unfold idx_ok in *. cbn [b_idx b_recs]. rewrite index_of_snoc, Hi. reflexivity.
  - unfold idxfile_ok in *. cbn [b_idxfile b_recs]. destruct (b_idxfile b) as [[sz m]|]; [|exact I].
    destruct Hf as (n & Hn & Hs & Hm). exists n. rewrite app_length. cbn [length].
    rewrite firstn_app_le by exact Hn. split; [lia|]. split; assumption.
Qed.

Lemma blob_append_id b r : b_id (fst (blob_append b r)) = b_id b.
Proof. unfold blob_append. destruct (b_ondisk b); reflexivity. Qed.

Lemma blob_append_recs b r : b_recs (fst (blob_append b r)) = b_recs b ++ [r].
Proof. unfold blob_append. destruct (b_ondisk b); reflexivity. Qed.

Lemma blob_append_ondisk b r : b_ondisk (fst (blob_append b r)) = b_ondisk b.
Proof. unfold blob_append. destruct (b_ondisk b); reflexivity. Qed.

Lemma blob_load_index_ok b : blob_ok K b -> blob_ok K (blob_load_index K b).
Proof.
  intros [Hi Hf]. unfold blob_load_index. destruct (b_ondisk b) eqn:D; [|split; assumption]. split.
  - unfold idx_ok. cbn [b_idx b_recs]. destruct (b_idxfile b) as [[sz m]|] eqn:E; [|reflexivity].
    destruct (N.eqb_spec sz (blob_size K b)) as [Hsz|]; [|reflexivity].
    apply (idxfile_full b sz m Hf E Hsz).
  - exact Hf.
Qed.

Lemma blob_load_index_id b : b_id (blob_load_index K b) = b_id b.
Proof. unfold blob_load_index. destruct (b_ondisk b); reflexivity. Qed.

Lemma blob_load_index_recs b : b_recs (blob_load_index K b) = b_recs b.
Proof. unfold blob_load_index. destruct (b_ondisk b); reflexivity. Qed.

Lemma blob_dump_ok b : blob_ok K b -> blob_ok K (blob_dump K b).
Proof.
  intros [Hi Hf]. unfold blob_dump. destruct (b_ondisk b); [split; assumption|].
  destruct (b_idx b) as [|p t] eqn:E; [split; assumption|]. split.
  - unfold idx_ok in *. cbn [b_idx b_recs]. rewrite <- E. exact Hi.
  - unfold idxfile_ok. cbn [b_idxfile b_recs]. exists (length (b_recs b)). rewrite firstn_all.
    split; [lia|]. split; [reflexivity|]. rewrite <- E. exact Hi.
Qed.

Lemma blob_dump_id b : b_id (blob_dump K b) = b_id b.
Proof. unfold blob_dump. destruct (b_ondisk b); [reflexivity|]. destruct (b_idx b); reflexivity. Qed.

Lemma blob_dump_recs b : b_recs (blob_dump K b) = b_recs b.
Proof. unfold blob_dump. destruct (b_ondisk b); [reflexivity|]. destruct (b_idx b); reflexivity. Qed.

Lemma blob_from_file_ok b : idxfile_ok K b -> blob_ok K (blob_from_file K b).
Proof.
  intros Hf. unfold blob_from_file. destruct (b_idxfile b) as [[sz m]|] eqn:E.
  - destruct (N.eqb_spec sz (blob_size K b)) as [Hsz|].
    + split; [|apply (idxfile_ok_ext b); [reflexivity|symmetry; exact E|exact Hf]].
      unfold idx_ok. cbn [b_idx b_recs]. apply (idxfile_full b sz m Hf E Hsz).
    + split; [reflexivity|apply (idxfile_ok_ext b); [reflexivity|symmetry; exact E|exact Hf]].
  - split; [reflexivity|exact I].
Qed.

Lemma blob_from_file_id b : b_id (blob_from_file K b) = b_id b.
Proof.
  unfold blob_from_file. destruct (b_idxfile b) as [[sz m]|]; [|reflexivity].
  destruct (sz =? blob_size K b); reflexivity.
Qed.

Lemma blob_from_file_recs b : b_recs (blob_from_file K b) = b_recs b.
Proof.
  unfold blob_from_file. destruct (b_idxfile b) as [[sz m]|]; [|reflexivity].
  destruct (sz =? blob_size K b); reflexivity.
Qed.

Lemma rm_index_ok b : blob_ok K b -> blob_ok K (rm_index b).
Proof. intros [Hi Hf]. split; [exact Hi|exact I]. Qed.

Lemma blob_delete_cases b mk oip :
  fst (fst (blob_delete K b mk oip)) = b \/
  fst (fst (blob_delete K b mk oip)) = fst (blob_append (blob_load_index K b) mk).
Proof.
  unfold blob_delete.
  destruct (negb oip || match idx_get_latest (b_idx b) (r_key mk) with Found _ => true | _ => false end); [right|left; reflexivity].
  destruct (blob_append (blob_load_index K b) mk) as [b2 ok]. reflexivity.
Qed.

Lemma blob_delete_id b mk oip : b_id (fst (fst (blob_delete K b mk oip))) = b_id b.
Proof.
  destruct (blob_delete_cases b mk oip) as [->| ->]; [reflexivity|]. rewrite blob_append_id. apply blob_load_index_id.
Qed.

Lemma blob_delete_mem b mk oip : b_ondisk b = false -> b_ondisk (fst (fst (blob_delete K b mk oip))) = false.
Proof.
  intros Hd. destruct (blob_delete_cases b mk oip) as [->| ->]; [exact Hd|].
  rewrite blob_append_ondisk. apply blob_load_index_mem.
Qed.

Lemma blob_delete_keeps_ok b mk oip : blob_ok K b -> blob_ok K (fst (fst (blob_delete K b mk oip))).
Proof.
  intros Hb. destruct (blob_delete_cases b mk oip) as [->| ->]; [exact Hb|].
  apply (blob_append_ok (blob_load_index K b) mk); [apply blob_load_index_ok, Hb|].
  rewrite <- (blob_append_mem _ mk (blob_load_index_mem K b)). apply surjective_pairing.
Qed.

Lemma map_closed_ok (f : blob -> blob) l : (forall b, blob_ok K b -> blob_ok K (f b)) ->
  (forall b, In (Some b) l -> blob_ok K b) -> forall b, In (Some b) (map (option_map f) l) -> blob_ok K b.
Proof.
  intros Hf H b Hb. apply in_map_iff in Hb. destruct Hb as ([x|] & Hx & Hin); [|discriminate].
  injection Hx as <-. apply Hf, H, Hin.
Qed.

Lemma BlobsOk_intro s :
  (forall b, In (Some b) (s_closed s) -> blob_ok K b) ->
  (forall b, s_active s = Some b -> blob_ok K b) -> BlobsOk K s.
Proof. intros H1 H2. split; assumption. Qed.

Lemma BlobsOk_ext s s' :
  s_closed s' = s_closed s -> s_active s' = s_active s -> BlobsOk K s -> BlobsOk K s'.
Proof. unfold BlobsOk. intros -> ->. auto. Qed.

Lemma BlobsOk_upd_active s a :
  BlobsOk K s -> (forall b, a = Some b -> blob_ok K b) -> BlobsOk K (upd_active s a).
Proof. intros [Hc Ha] H. split; cbn [s_closed s_active upd_active]; assumption. Qed.

Lemma BlobsOk_upd_closed s c :
  BlobsOk K s -> (forall b, In (Some b) c -> blob_ok K b) -> BlobsOk K (upd_closed s c).
Proof. intros [Hc Ha] H. split; cbn [s_closed s_active upd_closed]; assumption. Qed.

Lemma BlobsOk_request_dump s : BlobsOk K s -> BlobsOk K (request_dump s).
Proof. unfold request_dump. destruct (s_alive s); [|auto]. apply BlobsOk_ext; reflexivity. Qed.

Lemma BlobsOk_ensure_active s : BlobsOk K s -> BlobsOk K (ensure_active s).
Proof.
  intros H. unfold ensure_active. destruct (s_active s) as [a|] eqn:E; [exact H|].
  split; cbn [s_closed s_active]; [exact (proj1 H)|]. intros b Hb. injection Hb as <-. apply blob_ok_new.
Qed.

Lemma BlobsOk_close_active s : BlobsOk K s -> BlobsOk K (fst (close_active s)).
Proof.
  intros H. unfold close_active. destruct (s_active s) as [a|] eqn:E; cbn [fst]; [|exact H].
  split; cbn [push_closed upd_closed upd_active s_closed s_active]; [|discriminate].
  intros x Hx. apply in_app_or in Hx. destruct Hx as [Hx|[Hx|[]]]; [apply (proj1 H), Hx|].
  injection Hx as <-. apply (proj2 H), E.
Qed.

Lemma BlobsOk_create_active s : BlobsOk K s -> BlobsOk K (fst (create_active s)).
Proof. rewrite create_active_fst. apply BlobsOk_ensure_active. Qed.

Lemma BlobsOk_restore_active s : BlobsOk K s -> BlobsOk K (fst (restore_active K s)).
Proof.
  intros H. unfold restore_active. destruct (s_active s) as [a|] eqn:E; cbn [fst]; [exact H|].
  destruct (pop_last (s_closed s)) as [[b c]|] eqn:P; cbn [fst]; [|exact H].
  destruct (pop_last_in _ _ _ P) as [Hb Hc].
  apply BlobsOk_upd_active.
  - apply BlobsOk_upd_closed; [exact H|]. intros x Hx. apply (proj1 H), Hc, Hx.
  - intros x Hx. injection Hx as <-. apply blob_load_index_ok, (proj1 H), Hb.
Qed.

Lemma BlobsOk_maybe_rotate s : BlobsOk K s -> BlobsOk K (maybe_rotate K cfg s).
Proof.
  intros H. destruct (maybe_rotate_cases K cfg s) as [->| ->]; [exact H|].
  rewrite replace_active_eq. apply BlobsOk_request_dump, BlobsOk_ensure_active, BlobsOk_close_active, H.
Qed.

Theorem quiesce_BlobsOk : forall s, BlobsOk K s -> BlobsOk K (quiesce K s).
Proof.
  intros s H. destruct (quiesce_cases K s) as [->| ->]; [exact H|].
  split; cbn [upd_dump_req dump_all_closed upd_closed s_closed s_active]; [|apply H].
  apply (map_closed_ok (blob_dump K)); [exact blob_dump_ok|apply H].
Qed.

Lemma BlobsOk_closed_blobs s b : BlobsOk K s -> In b (closed_blobs s) -> blob_ok K b.
Proof. intros H Hb. rewrite closed_blobs_cb in Hb. apply in_cb in Hb. apply (proj1 H), Hb. Qed.

(* the end of a session: `close` dumps the active blob (f = blob_dump K), `drop` leaves it as it is *)
Lemma BlobsOk_end s (f : blob -> blob) : (forall b, blob_ok K b -> blob_ok K (f b)) -> BlobsOk K s ->
  BlobsOk K (closed_state (closed_blobs s ++ match s_active s with Some a => [f a] | None => [] end) s).
Proof.
  intros Hf H. split; cbn [s_closed s_active closed_state]; [|discriminate].
  intros b Hb. apply in_map_iff in Hb. destruct Hb as (x & Hx & Hin). injection Hx as <-.
  apply in_app_or in Hin. destruct Hin as [Hin|Hin]; [apply (BlobsOk_closed_blobs s x H Hin)|].
  destruct (s_active s) as [a|] eqn:EA; [|destruct Hin]. destruct Hin as [<-|[]]. apply Hf, (proj2 H), EA.
Qed.

Definition good_files (bad : list N) (files : list blob) : list blob := filter (fun b => negb (is_bad bad b)) files.
Definition new_quar (bad : list N) (files : list blob) : list N := map b_id (filter (is_bad bad) files).

Lemma do_open_nonempty files bad quar c lazy f2 : files <> [] ->
  do_open K files bad quar c lazy f2 =
    let blobs := sort_by_id (map (blob_from_file K) (good_files bad files)) in
    let next := next_above (map b_id files ++ quar) in
    let '(active, rest, next') :=
      if lazy then (None, blobs, next)
      else match rev blobs with
           | last :: r => (Some (blob_load_index K last), rev r, next)
           | [] => (Some (new_blob next), [], next + 1)
           end in
    {| s_active := active; s_closed := map (fun b => Some (blob_dump K b)) rest; s_next := next';
       s_corrupted := c + N.of_nat (length (new_quar bad files)); s_alive := true; s_dump_req := false; s_aged := false;
       s_open := true; s_f2 := f2; s_bad := []; s_quar := quar ++ new_quar bad files |}.
Proof. destruct files; [contradiction|reflexivity]. Qed.

(* no readable file: a fresh active blob (init_new on an empty directory, eager init when every file was moved away),
   or nothing at all (init_lazy) *)
Definition fresh_on_open (files : list blob) (lazy : bool) : bool := match files with [] => true | _ => negb lazy end.

(* what `open` makes of a directory: the readable files in id order, all of them closed (lazy), or the last one active;
   with no readable file, a fresh active blob or nothing *)
Lemma do_open_shape files bad quar c lazy f2
    (blobs := sort_by_id (map (blob_from_file K) (good_files bad files)))
    (next := next_above (map b_id files ++ quar)) :
  exists active rest next',
    do_open K files bad quar c lazy f2 =
      {| s_active := active; s_closed := map (fun b => Some (blob_dump K b)) rest; s_next := next';
         s_corrupted := c + N.of_nat (length (new_quar bad files)); s_alive := true; s_dump_req := false; s_aged := false;
         s_open := true; s_f2 := f2; s_bad := []; s_quar := quar ++ new_quar bad files |} /\
    (fresh_on_open files lazy = false /\ active = None /\ rest = blobs /\ next' = next \/
     (exists last, active = Some (blob_load_index K last) /\ blobs = rest ++ [last] /\ next' = next) \/
     fresh_on_open files lazy = true /\ blobs = [] /\ active = Some (new_blob next) /\ rest = [] /\ next' = next + 1).
Proof.
  subst blobs next. destruct files as [|f0 fs].
  - exists (Some (new_blob (next_above quar))), [], (next_above quar + 1). split; [|right; right; repeat split].
    cbn [do_open new_quar filter map length]. rewrite N.add_0_r, app_nil_r. reflexivity.
  - rewrite do_open_nonempty by discriminate. cbv zeta.
    set (blobs := sort_by_id (map (blob_from_file K) (good_files bad (f0 :: fs)))).
    set (next := next_above (map b_id (f0 :: fs) ++ quar)).
    destruct lazy.
    + exists None, blobs, next. split; [reflexivity|left; repeat split].
    + generalize (eq_sym (rev_involutive blobs)). destruct (rev blobs) as [|last r]; cbn [rev]; intros R.
      * exists (Some (new_blob next)), [], (next + 1). split; [reflexivity|right; right; repeat split; exact R].
      * exists (Some (blob_load_index K last)), (rev r), next.
        split; [reflexivity|right; left; exists last; repeat split; exact R].
Qed.

Lemma BlobsOk_do_open files bad quar c lazy f2 :
  (forall b, In b files -> blob_ok K b) -> BlobsOk K (do_open K files bad quar c lazy f2).
Proof.
  intros H. destruct (do_open_shape files bad quar c lazy f2) as (a & r & n & -> & Hs).
  assert (HB : forall b, In b (sort_by_id (map (blob_from_file K) (good_files bad files))) -> blob_ok K b).
  { intros b Hb. apply (proj1 (in_sort_by_id _ _)) in Hb. apply in_map_iff in Hb. destruct Hb as (x & <- & Hx).
    apply blob_from_file_ok, H. unfold good_files in Hx. apply filter_In in Hx. apply Hx. }
  split; cbn [s_closed s_active].
  - intros b Hb. apply in_map_iff in Hb. destruct Hb as (x & Hx & Hin). injection Hx as <-. apply blob_dump_ok, HB.
    destruct Hs as [(_ & _ & -> & _)|[(last & _ & -> & _)|(_ & _ & _ & -> & _)]].
    + exact Hin.
    + apply in_or_app. left. exact Hin.
    + destruct Hin.
  - intros b Eb. destruct Hs as [(_ & -> & _)|[(last & -> & E & _)|(_ & _ & -> & _)]].
    + discriminate Eb.
    + injection Eb as <-. apply blob_load_index_ok, HB. rewrite E. apply in_or_app. right. left. reflexivity.
    + injection Eb as <-. apply blob_ok_new.
Qed.

Lemma cut_recs_ok j b : idxfile_ok K b -> cut_applies K j b = true -> blob_ok K (cut_recs j b).
Proof.
  intros Hf Ha. split; [reflexivity|].
  unfold idxfile_ok in *. unfold cut_applies in Ha. cbn [cut_recs b_idxfile b_recs].
  destruct (b_idxfile b) as [[sz m]|]; [|exact I].
  destruct Hf as (n & Hn & Hs & Hm). apply N.leb_le in Ha.
  destruct (Nat.le_gt_cases (length (b_recs b)) j) as [Hj|Hj].
  - rewrite firstn_all2 by exact Hj. exists n. auto.
  - assert (Hnj : (n <= j)%nat).
    { apply (size_of_firstn_mono n j (b_recs b)); [exact Hn|]. rewrite <- Hs. exact Ha. }
    exists n. rewrite firstn_length, firstn_firstn. replace (Init.Nat.min n j) with n by lia.
    split; [lia|]. split; assumption.
Qed.

Lemma cut_blob_ok id j b : blob_ok K b -> blob_ok K (cut_blob K id j b).
Proof.
  intros H. unfold cut_blob. destruct (b_id b =? id); cbn [andb]; [|exact H].
  destruct (cut_applies K j b) eqn:Ha; [apply cut_recs_ok; [apply H|exact Ha]|exact H].
Qed.

Lemma cut_blob_id id j b : b_id (cut_blob K id j b) = b_id b.
Proof. unfold cut_blob. destruct ((b_id b =? id) && cut_applies K j b); reflexivity. Qed.

Lemma closed_do_cut s id keep :
  s_closed (do_cut K s id keep) =
  match keep with
  | Some j => if s_open s then s_closed s
              else map (fun o => match o with Some b => Some (cut_blob K id j b) | None => None end) (s_closed s)
  | None => s_closed s
  end.
Proof.
  unfold do_cut. destruct (s_open s); [destruct keep; reflexivity|]. destruct keep as [j|]; [reflexivity|].
  destruct (existsb (fun b => b_id b =? id) (closed_blobs s)); reflexivity.
Qed.

Lemma do_cut_fields s id keep (s' := do_cut K s id keep) :
  s_active s' = s_active s /\ s_next s' = s_next s /\ s_open s' = s_open s /\ s_f2 s' = s_f2 s /\
  s_quar s' = s_quar s /\ s_corrupted s' = s_corrupted s.
Proof.
  subst s'. unfold do_cut. destruct (s_open s) eqn:EO; [repeat split; exact EO|].
  destruct keep as [j|]; [repeat split; exact EO|].
  destruct (existsb (fun b => b_id b =? id) (closed_blobs s)); repeat split; exact EO.
Qed.

Lemma active_do_cut s id keep : s_active (do_cut K s id keep) = s_active s.
Proof. apply do_cut_fields. Qed.

Lemma open_do_cut s id keep : s_open (do_cut K s id keep) = s_open s.
Proof. apply do_cut_fields. Qed.

Lemma f2_do_cut s id keep : s_f2 (do_cut K s id keep) = s_f2 s.
Proof. apply do_cut_fields. Qed.

Lemma quar_do_cut s id keep : s_quar (do_cut K s id keep) = s_quar s.
Proof. apply do_cut_fields. Qed.

Lemma corrupted_do_cut s id keep : s_corrupted (do_cut K s id keep) = s_corrupted s.
Proof. apply do_cut_fields. Qed.

Lemma f2_do_open files bad quar c lazy f2 : s_f2 (do_open K files bad quar c lazy f2) = f2.
Proof. destruct (do_open_shape files bad quar c lazy f2) as (a & r & n & -> & _). reflexivity. Qed.

Lemma open_do_open files bad quar c lazy f2 : s_open (do_open K files bad quar c lazy f2) = true.
Proof. destruct (do_open_shape files bad quar c lazy f2) as (a & r & n & -> & _). reflexivity. Qed.

Lemma step_opens s o : s_open s = false -> s_open (fst (step K cfg s o)) = true -> exists lazy, o = OOpen lazy.
Proof.
  intros Ho Ho'. unfold step in Ho'. rewrite Ho in Ho'.
  destruct o; cbn [needs_open negb andb fst s_open upd_aged upd_closed] in Ho'; try congruence.
  - exists lazy. reflexivity.
  - rewrite open_do_cut in Ho'. congruence.
Qed.

Lemma BlobsOk_do_cut s id keep : BlobsOk K s -> BlobsOk K (do_cut K s id keep).
Proof.
  intros H. split; [|rewrite active_do_cut; apply H].
  rewrite closed_do_cut. destruct keep as [j|]; [|apply H]. destruct (s_open s); [apply H|].
  apply (map_closed_ok (cut_blob K id j)); [apply cut_blob_ok|apply H].
Qed.

Lemma delete_in_closed_ids l mk : map b_id (cb (fst (fst (delete_in_closed K l mk)))) = map b_id (cb l).
Proof.
  rewrite delete_in_closed_map, (cb_map_opt (fun b => fst (fst (blob_delete K b mk true)))).
  apply map_id_ext. intros b. apply blob_delete_id.
Qed.

Lemma do_delete_BlobsOk s k ts meta msize oip :
  BlobsOk K s -> BlobsOk K (fst (do_delete K s k ts meta msize oip)).
Proof.
  apply (do_delete_preserves K (BlobsOk K)).
  - apply BlobsOk_ensure_active.
  - intros s0 a EA H. apply BlobsOk_upd_active; [exact H|]. intros b Eb. injection Eb as <-.
    apply blob_delete_keeps_ok, (proj2 H), EA.
  - intros s0 H. split; cbn [upd_f2 upd_closed s_closed s_active]; [|apply H].
    rewrite delete_in_closed_map. apply map_closed_ok; [intros b; apply blob_delete_keeps_ok|apply H].
  - apply BlobsOk_request_dump.
Qed.

Theorem init_BlobsOk : BlobsOk K init_storage.
Proof. split; cbn [s_closed s_active init_storage]; [intros b []|discriminate]. Qed.

Lemma f2_replace_active s : s_f2 (replace_active s) = s_f2 s.
Proof. reflexivity. Qed.

(* well formed, unless a write failed to push into the index: such a write leaves bytes in the active blob that its
   index does not describe, and raises the ghost flag; the flag is never lowered *)
Definition BlobsOkF (s : storage) : Prop := s_f2 s = true \/ BlobsOk K s.

Lemma BlobsOkF_move s s' : s_f2 s' = s_f2 s -> (BlobsOk K s -> BlobsOk K s') -> BlobsOkF s -> BlobsOkF s'.
Proof. intros Ef Hb [F|H]; [left; rewrite Ef; exact F|right; apply Hb, H]. Qed.

Lemma do_write_BlobsOkF s k ts meta msize dlen dseed :
  BlobsOkF s -> BlobsOkF (fst (do_write K cfg s k ts meta msize dlen dseed)).
Proof.
  intros H.
  assert (H1 : BlobsOkF (ensure_active s)).
  { revert H. apply BlobsOkF_move; [apply f2_ensure_active|apply BlobsOk_ensure_active]. }
  destruct (do_write_cases K cfg s k ts meta msize dlen dseed) as [E|(a & b' & ok & EA & A & E)]; rewrite E; [exact H1|].
  destruct ok; cbn [fst].
  - revert H1. apply BlobsOkF_move; [rewrite f2_maybe_rotate; reflexivity|].
    intros HB. apply BlobsOk_maybe_rotate, BlobsOk_upd_active; [exact HB|].
    intros b Eb. injection Eb as <-. apply (blob_append_ok a _ b' (proj2 HB a EA) A).
  - left. cbn [s_f2 upd_f2]. apply orb_true_r.
Qed.

Theorem step_BlobsOkF : forall s o, BlobsOkF s -> BlobsOkF (fst (step K cfg s o)).
Proof.
  intros s o. apply (step_preserves K cfg BlobsOkF).
  - intros s0 _. apply BlobsOkF_move; [apply f2_request_dump|apply BlobsOk_request_dump].
  - intros s0 _. apply BlobsOkF_move; [apply f2_ensure_active|apply BlobsOk_ensure_active].
  - intros s0 _. apply BlobsOkF_move; [apply f2_close_active|apply BlobsOk_close_active].
  - intros s0 _. apply BlobsOkF_move; [apply f2_restore_active|apply BlobsOk_restore_active].
  - intros s0 _. apply BlobsOkF_move; [apply f2_quiesce|apply quiesce_BlobsOk].
  - intros s0 k ts meta msize dlen dseed _. apply do_write_BlobsOkF.
  - intros s0 k ts meta msize oip _. apply BlobsOkF_move; [apply f2_do_delete|apply do_delete_BlobsOk].
  - intros s0. apply BlobsOkF_move; [reflexivity|apply BlobsOk_ext; reflexivity].
  - intros s0 id. apply BlobsOkF_move; [reflexivity|]. intros H. apply BlobsOk_upd_closed; [exact H|].
    apply (map_closed_ok (fun b => if b_id b =? id then rm_index b else b)); [|apply H].
    intros b Hb. destruct (b_id b =? id); [apply rm_index_ok, Hb|exact Hb].
  - intros s0 _. apply BlobsOkF_move; [reflexivity|]. apply (BlobsOk_end s0 (blob_dump K)), blob_dump_ok.
  - intros s0 _. apply BlobsOkF_move; [reflexivity|]. apply (BlobsOk_end s0 (fun b => b)). auto.
  - intros s0 lazy _. apply BlobsOkF_move; [apply f2_do_open|]. intros H.
    apply BlobsOk_do_open. intros b Hb. apply (BlobsOk_closed_blobs s0 b H Hb).
  - intros s0 id keep. apply BlobsOkF_move; [apply f2_do_cut|apply BlobsOk_do_cut].
Qed.

Lemma step_q_BlobsOkF s o : BlobsOkF s -> BlobsOkF (fst (step_q K cfg s o)).
Proof.
  revert s o. apply step_q_lift; [exact step_BlobsOkF|].
  intros s. apply BlobsOkF_move; [apply f2_quiesce|apply quiesce_BlobsOk].
Qed.

Theorem run_BlobsOk : forall ops s,
  BlobsOk K s -> s_f2 (fst (run K cfg s ops)) = false -> BlobsOk K (fst (run K cfg s ops)).
Proof.
  intros ops s H F.
  destruct (run_lift K cfg BlobsOkF step_q_BlobsOkF ops s (or_intror H)) as [E|E]; [|exact E].
  rewrite E in F. discriminate F.
Qed.

Definition ids (s : storage) : list N := map b_id (blobs_in_order s).

Lemma ids_eq s :
  ids s = map b_id (cb (s_closed s)) ++ match s_active s with Some b => [b_id b] | None => [] end.
Proof. unfold ids, blobs_in_order. rewrite map_app, closed_blobs_cb. destruct (s_active s); reflexivity. Qed.

(* the quarantine fields, which no operation of a session touches *)
Definition qf (s : storage) : list N * list N * N := (s_quar s, s_bad s, s_corrupted s).

(* the form used for open storages: the bounds hold unconditionally *)
Definition QuarS (s : storage) : Prop :=
  (forall q, In q (s_quar s) -> q < s_next s) /\ (forall i, In i (ids s) -> ~ In i (s_quar s)) /\
  s_bad s = [] /\ s_corrupted s = N.of_nat (length (s_quar s)).

Definition IdsOkS (s : storage) : Prop :=
  increasing (ids s) /\ (forall i, In i (ids s) -> i < s_next s) /\ QuarS s.

Lemma IdsOk_iff s :
  IdsOk s <-> increasing (ids s) /\ (s_open s = true -> forall i, In i (ids s) -> i < s_next s) /\
              (s_open s = true -> forall q, In q (s_quar s) -> q < s_next s) /\
              (forall i, In i (ids s) -> ~ In i (s_quar s)) /\
              (s_open s = true -> s_bad s = []) /\ s_corrupted s = N.of_nat (length (s_quar s)).
Proof.
  assert (Hin : forall (P : N -> Prop) l, (forall b : blob, In b l -> P (b_id b)) <-> (forall i, In i (map b_id l) -> P i)).
  { intros P l. split; [|intros H b Hb; apply H, in_map, Hb].
    intros H i Hi. apply in_map_iff in Hi. destruct Hi as (b & <- & Hb). apply H, Hb. }
  unfold IdsOk, QuarOk, ids. rewrite (Hin (fun i => i < s_next s)), (Hin (fun i => ~ In i (s_quar s))). reflexivity.
Qed.

Lemma IdsOkS_IdsOk s : IdsOkS s -> IdsOk s.
Proof.
  intros (H1 & H2 & H3 & H4 & H5 & H6). apply IdsOk_iff. split; [exact H1|]. split; [intros _; exact H2|].
  split; [intros _; exact H3|]. split; [exact H4|]. split; [intros _; exact H5|exact H6].
Qed.

Lemma IdsOk_IdsOkS s : IdsOk s -> s_open s = true -> IdsOkS s.
Proof.
  intros H Ho. apply IdsOk_iff in H. destruct H as (H1 & H2 & H3 & H4 & H5 & H6).
  split; [exact H1|]. split; [apply H2, Ho|]. split; [apply H3, Ho|]. split; [exact H4|]. split; [apply H5, Ho|exact H6].
Qed.

Lemma qf_inv s s' : qf s' = qf s -> s_quar s' = s_quar s /\ s_bad s' = s_bad s /\ s_corrupted s' = s_corrupted s.
Proof. unfold qf. intros E. injection E as E1 E2 E3. auto. Qed.

Lemma IdsOk_same s s' :
  ids s' = ids s -> s_next s' = s_next s -> s_open s' = s_open s -> qf s' = qf s -> IdsOk s -> IdsOk s'.
Proof.
  intros Hi Hn Ho Hq H. apply qf_inv in Hq. destruct Hq as (Hq1 & Hq2 & Hq3).
  apply IdsOk_iff in H. apply IdsOk_iff. rewrite Hi, Hn, Ho, Hq1, Hq2, Hq3. exact H.
Qed.

Lemma IdsOkS_same s s' : ids s' = ids s -> s_next s' = s_next s -> qf s' = qf s -> IdsOkS s -> IdsOkS s'.
Proof.
  unfold IdsOkS, QuarS. intros Hi Hn Hq. apply qf_inv in Hq. destruct Hq as (Hq1 & Hq2 & Hq3).
  rewrite Hi, Hn, Hq1, Hq2, Hq3. auto.
Qed.

Lemma IdsOkS_grow s s' :
  ids s' = ids s ++ [s_next s] -> s_next s' = s_next s + 1 -> qf s' = qf s -> IdsOkS s -> IdsOkS s'.
Proof.
  unfold IdsOkS, QuarS. intros Hi Hn Hq. apply qf_inv in Hq. destruct Hq as (Hq1 & Hq2 & Hq3).
  rewrite Hi, Hn, Hq1, Hq2, Hq3. intros (H1 & H2 & H3 & H4 & H5 & H6). split; [|split; [|split; [|split; [|split]]]].
  - apply increasing_snoc; assumption.
  - intros i Hin. apply in_app_or in Hin. destruct Hin as [Hin|[<-|[]]]; [specialize (H2 i Hin)|]; lia.
  - intros q Hq. specialize (H3 q Hq). lia.
  - intros i Hin Hq. apply in_app_or in Hin. destruct Hin as [Hin|[<-|[]]]; [exact (H4 i Hin Hq)|].
    specialize (H3 _ Hq). lia.
  - exact H5.
  - exact H6.
Qed.

Lemma IdsOkS_ensure_active s : IdsOkS s -> IdsOkS (ensure_active s).
Proof.
  unfold ensure_active. destruct (s_active s) as [a|] eqn:E; [auto|].
  apply IdsOkS_grow; [|reflexivity|reflexivity]. rewrite !ids_eq, E. cbn [s_closed s_active new_blob b_id].
  rewrite app_nil_r. reflexivity.
Qed.

Lemma IdsOkS_request_dump s : IdsOkS s -> IdsOkS (request_dump s).
Proof. unfold request_dump. destruct (s_alive s); [|auto]. apply IdsOkS_same; reflexivity. Qed.

Lemma IdsOkS_close_active s : IdsOkS s -> IdsOkS (fst (close_active s)).
Proof.
  unfold close_active. destruct (s_active s) as [a|] eqn:E; cbn [fst]; [|auto].
  apply IdsOkS_same; [|reflexivity|reflexivity].
  rewrite !ids_eq, E. cbn [push_closed upd_closed upd_active s_closed s_active].
  rewrite cb_app, map_app, app_nil_r. reflexivity.
Qed.

Lemma IdsOkS_restore_active s : IdsOkS s -> IdsOkS (fst (restore_active K s)).
Proof.
  unfold restore_active. destruct (s_active s) as [a|] eqn:E; cbn [fst]; [auto|].
  destruct (pop_last (s_closed s)) as [[b c]|] eqn:P; cbn [fst]; [|auto].
  apply IdsOkS_same; [|reflexivity|reflexivity]. rewrite !ids_eq, E. cbn [upd_closed upd_active s_closed s_active].
  rewrite (pop_last_cb _ _ _ P), map_app, app_nil_r. cbn [map]. rewrite blob_load_index_id. reflexivity.
Qed.

Lemma IdsOkS_maybe_rotate s : IdsOkS s -> IdsOkS (maybe_rotate K cfg s).
Proof.
  intros H. destruct (maybe_rotate_cases K cfg s) as [->| ->]; [exact H|].
  rewrite replace_active_eq. apply IdsOkS_request_dump, IdsOkS_ensure_active, IdsOkS_close_active, H.
Qed.

Lemma IdsOkS_upd_active s a b' :
  s_active s = Some a -> b_id b' = b_id a -> IdsOkS s -> IdsOkS (upd_active s (Some b')).
Proof.
  intros E Hi. apply IdsOkS_same; [|reflexivity|reflexivity]. rewrite !ids_eq, E.
  cbn [upd_active s_closed s_active]. rewrite Hi. reflexivity.
Qed.

Lemma do_write_IdsOkS s k ts meta msize dlen dseed :
  IdsOkS s -> IdsOkS (fst (do_write K cfg s k ts meta msize dlen dseed)).
Proof.
  apply (do_write_preserves K cfg IdsOkS).
  - apply IdsOkS_ensure_active.
  - intros s0 a EA. apply (IdsOkS_upd_active s0 a); [exact EA|apply blob_append_id].
  - apply IdsOkS_maybe_rotate.
  - intros s0. apply IdsOkS_same; reflexivity.
Qed.

Lemma do_delete_IdsOkS s k ts meta msize oip :
  IdsOkS s -> IdsOkS (fst (do_delete K s k ts meta msize oip)).
Proof.
  apply (do_delete_preserves K IdsOkS).
  - apply IdsOkS_ensure_active.
  - intros s0 a EA. apply (IdsOkS_upd_active s0 a); [exact EA|apply blob_delete_id].
  - intros s0. apply IdsOkS_same; [|reflexivity|reflexivity]. rewrite !ids_eq. cbn [upd_f2 upd_closed s_closed s_active].
    rewrite delete_in_closed_ids. reflexivity.
  - apply IdsOkS_request_dump.
Qed.

Theorem quiesce_IdsOk : forall s, IdsOk s -> IdsOk (quiesce K s).
Proof.
  intros s. destruct (quiesce_cases K s) as [->| ->]; [auto|].
  apply IdsOk_same; [|reflexivity|reflexivity|reflexivity].
  rewrite !ids_eq. cbn [upd_dump_req dump_all_closed upd_closed s_closed s_active].
  rewrite cb_map_opt, (map_id_ext _ _ blob_dump_id). reflexivity.
Qed.

Lemma ids_closed_state files s : ids (closed_state files s) = map b_id files.
Proof. rewrite ids_eq. cbn [closed_state s_closed s_active]. rewrite cb_map_Some, app_nil_r. reflexivity. Qed.

Lemma increasing_closed s : increasing (ids s) -> increasing (map b_id (closed_blobs s)).
Proof. rewrite ids_eq, closed_blobs_cb. apply increasing_app_l. Qed.

Lemma is_bad_iff bad b : is_bad bad b = true <-> In (b_id b) bad.
Proof.
  unfold is_bad. rewrite existsb_exists. split.
  - intros (x & Hx & E). apply N.eqb_eq in E. subst x. exact Hx.
  - intros H. exists (b_id b). split; [exact H|apply N.eqb_refl].
Qed.

Lemma in_good_files bad files b : In b (good_files bad files) <-> In b files /\ ~ In (b_id b) bad.
Proof.
  unfold good_files. rewrite filter_In, negb_true_iff, <- not_true_iff_false, is_bad_iff. reflexivity.
Qed.

Lemma in_new_quar bad files q : In q (new_quar bad files) <-> exists b, In b files /\ b_id b = q /\ In q bad.
Proof.
  unfold new_quar. rewrite in_map_iff. split.
  - intros (b & <- & Hb). apply filter_In in Hb. destruct Hb as [Hb E]. exists b. split; [exact Hb|].
    split; [reflexivity|apply is_bad_iff, E].
  - intros (b & Hb & <- & Hq). exists b. split; [reflexivity|]. apply filter_In. split; [exact Hb|apply is_bad_iff, Hq].
Qed.

Lemma do_open_order files bad quar c lazy f2 : increasing (map b_id files) -> good_files bad files <> [] ->
  map b_id (blobs_in_order (do_open K files bad quar c lazy f2)) = map b_id (good_files bad files) /\
  flat_map b_recs (blobs_in_order (do_open K files bad quar c lazy f2)) = flat_map b_recs (good_files bad files) /\
  s_next (do_open K files bad quar c lazy f2) = next_above (map b_id files ++ quar).
Proof.
  intros Hinc Hne.
  pose proof (increasing_filter (fun b => negb (is_bad bad b)) files Hinc) as Hg. fold (good_files bad files) in Hg.
  destruct (do_open_shape files bad quar c lazy f2) as (a & r & n & -> & Hs).
  rewrite sort_by_id_increasing in Hs by (rewrite (map_id_ext _ _ blob_from_file_id); exact Hg).
  rewrite <- (map_id_ext _ (good_files bad files) blob_from_file_id).
  rewrite <- (flat_map_recs_ext _ (good_files bad files) blob_from_file_recs).
  unfold blobs_in_order. rewrite closed_blobs_cb. cbn [s_closed s_active s_next]. rewrite cb_map_some_f.
  destruct Hs as [(_ & -> & -> & ->)|[(last & -> & -> & ->)|(_ & E & _)]].
  - rewrite !app_nil_r, (map_id_ext _ _ blob_dump_id), (flat_map_recs_ext _ _ blob_dump_recs). auto.
  - rewrite !map_app, !flat_map_app. cbn [map flat_map].
    rewrite (map_id_ext _ _ blob_dump_id), (flat_map_recs_ext _ _ blob_dump_recs).
    rewrite blob_load_index_id, blob_load_index_recs. auto.
  - apply map_eq_nil in E. destruct (Hne E).
Qed.

Lemma do_open_nogood files bad quar c lazy f2 : good_files bad files = [] ->
  blobs_in_order (do_open K files bad quar c lazy f2) =
    (if fresh_on_open files lazy then [new_blob (next_above (map b_id files ++ quar))] else []) /\
  s_next (do_open K files bad quar c lazy f2) =
    (if fresh_on_open files lazy then next_above (map b_id files ++ quar) + 1 else next_above (map b_id files ++ quar)).
Proof.
  intros Hg. destruct (do_open_shape files bad quar c lazy f2) as (a & r & n & -> & Hs). rewrite Hg in Hs.
  destruct Hs as [(-> & -> & -> & ->)|[(last & _ & E & _)|(-> & _ & -> & -> & ->)]].
  - split; reflexivity.
  - destruct (app_cons_not_nil _ _ _ E).
  - split; reflexivity.
Qed.

Lemma do_open_quar files bad quar c lazy f2 :
  s_quar (do_open K files bad quar c lazy f2) = quar ++ new_quar bad files /\
  s_corrupted (do_open K files bad quar c lazy f2) = c + N.of_nat (length (new_quar bad files)) /\
  s_bad (do_open K files bad quar c lazy f2) = [].
Proof. destruct (do_open_shape files bad quar c lazy f2) as (a & r & n & -> & _). auto. Qed.

Lemma do_open_next_ge files bad quar c lazy f2 :
  next_above (map b_id files ++ quar) <= s_next (do_open K files bad quar c lazy f2).
Proof.
  destruct (do_open_shape files bad quar c lazy f2)
    as (a & r & n & -> & [(_ & _ & _ & ->)|[(last & _ & _ & ->)|(_ & _ & _ & _ & ->)]]); cbn [s_next]; lia.
Qed.

Lemma do_open_IdsOkS files bad quar c lazy f2 :
  increasing (map b_id files) -> (forall b, In b files -> ~ In (b_id b) quar) -> c = N.of_nat (length quar) ->
  IdsOkS (do_open K files bad quar c lazy f2).
Proof.
  intros Hinc Hnq Hc.
  destruct (do_open_quar files bad quar c lazy f2) as (Eq & Ec & Eb).
  pose proof (do_open_next_ge files bad quar c lazy f2) as Hge.
  assert (HQ0 : forall q, In q (quar ++ new_quar bad files) -> q < next_above (map b_id files ++ quar)).
  { intros q Hq. apply next_above_bound, in_or_app. apply in_app_or in Hq. destruct Hq as [Hq|Hq]; [right; exact Hq|left].
    apply in_new_quar in Hq. destruct Hq as (b & Hb & <- & _). apply in_map. exact Hb. }
  assert (HQ1 : forall q, In q (quar ++ new_quar bad files) -> q < s_next (do_open K files bad quar c lazy f2)).
  { intros q Hq. specialize (HQ0 q Hq). lia. }
  assert (HC : c + N.of_nat (length (new_quar bad files)) = N.of_nat (length (quar ++ new_quar bad files))).
  { rewrite app_length, Nat2N.inj_add, Hc. reflexivity. }
  unfold IdsOkS, QuarS. rewrite Eq, Ec, Eb. unfold ids.
  destruct (good_files bad files) as [|g0 gs] eqn:EG.
  - destruct (do_open_nogood files bad quar c lazy f2 EG) as [Hb Hn]. rewrite Hb.
    destruct (fresh_on_open files lazy); cbn [map new_blob b_id].
    + split; [split; exact I|]. split; [intros i [<-|[]]; lia|]. split; [exact HQ1|]. split; [|auto].
      intros i [<-|[]] Hq. specialize (HQ0 _ Hq). lia.
    + split; [exact I|]. split; [intros i []|]. split; [exact HQ1|]. split; [intros i []|auto].
  - assert (Hne : good_files bad files <> []) by (rewrite EG; discriminate).
    destruct (do_open_order files bad quar c lazy f2 Hinc Hne) as (Hi & _ & Hn). rewrite Hi.
    split; [apply (increasing_filter (fun b => negb (is_bad bad b)) files Hinc)|].
    split; [|split; [exact HQ1|split; [|auto]]].
    + intros i Hin. rewrite Hn. apply next_above_bound. apply in_or_app. left.
      apply in_map_iff in Hin. destruct Hin as (b & <- & Hb). apply in_map. apply in_good_files in Hb. apply Hb.
    + intros i Hin Hq. apply in_map_iff in Hin. destruct Hin as (b & <- & Hb). apply in_good_files in Hb.
      destruct Hb as [Hb Hnb]. apply in_app_or in Hq. destruct Hq as [Hq|Hq]; [exact (Hnq b Hb Hq)|].
      apply in_new_quar in Hq. destruct Hq as (b' & _ & _ & Hq). exact (Hnb Hq).
Qed.

Lemma ids_do_cut s id keep : ids (do_cut K s id keep) = ids s.
Proof.
  rewrite !ids_eq, active_do_cut, closed_do_cut. destruct keep as [j|]; [|reflexivity].
  destruct (s_open s); [reflexivity|]. rewrite cb_map_opt, (map_id_ext _ _ (cut_blob_id id j)). reflexivity.
Qed.

Lemma IdsOk_do_cut s id keep : IdsOk s -> IdsOk (do_cut K s id keep).
Proof.
  intros H. destruct (s_open s) eqn:EO; [unfold do_cut; rewrite EO; exact H|].
  apply IdsOk_iff in H. apply IdsOk_iff. destruct (do_cut_fields s id keep) as (_ & En & Eo & _ & Eq & Ec).
  rewrite Eo, EO, En, Eq, Ec, ids_do_cut. destruct H as (H1 & H2 & H3 & H4 & H5 & H6).
  split; [exact H1|]. split; [discriminate|]. split; [discriminate|]. split; [exact H4|]. split; [discriminate|exact H6].
Qed.

Theorem init_IdsOk : IdsOk init_storage.
Proof.
  split; [exact I|]. split; [intros _ b []|]. split; [intros _ q []|]. split; [intros b []|]. split; reflexivity.
Qed.

Lemma IdsOk_session s s' : s_open s = true -> (IdsOkS s -> IdsOkS s') -> IdsOk s -> IdsOk s'.
Proof. intros Ho Hs H. apply IdsOkS_IdsOk, Hs, IdsOk_IdsOkS; assumption. Qed.

Theorem step_IdsOk : forall s o, IdsOk s -> IdsOk (fst (step K cfg s o)).
Proof.
  intros s o. apply (step_preserves K cfg IdsOk).
  - intros s0 Ho. apply (IdsOk_session _ _ Ho), IdsOkS_request_dump.
  - intros s0 Ho. apply (IdsOk_session _ _ Ho), IdsOkS_ensure_active.
  - intros s0 Ho. apply (IdsOk_session _ _ Ho), IdsOkS_close_active.
  - intros s0 Ho. apply (IdsOk_session _ _ Ho), IdsOkS_restore_active.
  - intros s0 _. apply quiesce_IdsOk.
  - intros s0 k ts meta msize dlen dseed Ho. apply (IdsOk_session _ _ Ho), do_write_IdsOkS.
  - intros s0 k ts meta msize oip Ho. apply (IdsOk_session _ _ Ho), do_delete_IdsOkS.
  - intros s0. apply IdsOk_same; reflexivity.
  - intros s0 id. apply IdsOk_same; [|reflexivity|reflexivity|reflexivity].
    rewrite !ids_eq. cbn [upd_closed s_closed s_active]. rewrite cb_map_opt.
    rewrite map_id_ext; [reflexivity|]. intros b. destruct (b_id b =? id); reflexivity.
  - intros s0 Ho. apply (IdsOk_session _ _ Ho). apply IdsOkS_same; [|reflexivity|reflexivity].
    rewrite ids_closed_state, ids_eq. unfold do_close. rewrite map_app, closed_blobs_cb.
    destruct (s_active s0) as [a|]; [|reflexivity]. cbn [map]. rewrite blob_dump_id. reflexivity.
  - intros s0 Ho. apply (IdsOk_session _ _ Ho), IdsOkS_same; [apply ids_closed_state|reflexivity|reflexivity].
  - intros s0 lazy _ H. apply IdsOk_iff in H. destruct H as (H1 & _ & _ & H4 & _ & H6).
    apply IdsOkS_IdsOk, do_open_IdsOkS; [apply increasing_closed, H1| |exact H6].
    intros b Hb. apply H4. rewrite ids_eq, <- closed_blobs_cb. apply in_or_app. left. apply in_map. exact Hb.
  - intros s0 id keep. apply IdsOk_do_cut.
Qed.

Lemma step_q_IdsOk s o : IdsOk s -> IdsOk (fst (step_q K cfg s o)).
Proof. revert s o. apply step_q_lift; [exact step_IdsOk|exact quiesce_IdsOk]. Qed.

Theorem run_IdsOk : forall ops s, IdsOk s -> IdsOk (fst (run K cfg s ops)).
Proof. apply run_lift. exact step_q_IdsOk. Qed.

Lemma abs_eq s :
  abs s = flat_map b_recs (cb (s_closed s)) ++ match s_active s with Some b => b_recs b | None => [] end.
Proof.
  unfold abs, blobs_in_order. rewrite flat_map_app, closed_blobs_cb.
  destruct (s_active s); [cbn [flat_map]; rewrite app_nil_r|]; reflexivity.
Qed.

Lemma abs_ext s s' : s_closed s' = s_closed s -> s_active s' = s_active s -> abs s' = abs s.
Proof. intros Hc Ha. rewrite !abs_eq, Hc, Ha. reflexivity. Qed.

Lemma abs_request_dump s : abs (request_dump s) = abs s.
Proof. unfold request_dump. destruct (s_alive s); reflexivity. Qed.

Lemma abs_ensure_active s : abs (ensure_active s) = abs s.
Proof.
  unfold ensure_active. destruct (s_active s) as [a|] eqn:E; [reflexivity|].
  rewrite !abs_eq, E. reflexivity.
Qed.

Lemma abs_close_active s : abs (fst (close_active s)) = abs s.
Proof.
  unfold close_active. destruct (s_active s) as [a|] eqn:E; cbn [fst]; [|reflexivity].
  rewrite !abs_eq, E. cbn [push_closed upd_closed upd_active s_closed s_active].
  rewrite cb_app, flat_map_app, app_nil_r. cbn [cb flat_map app]. rewrite !app_nil_r. reflexivity.
Qed.

Lemma abs_restore_active s : abs (fst (restore_active K s)) = abs s.
Proof.
  unfold restore_active. destruct (s_active s) as [a|] eqn:E; cbn [fst]; [reflexivity|].
  destruct (pop_last (s_closed s)) as [[b c]|] eqn:P; cbn [fst]; [|reflexivity].
  rewrite !abs_eq, E. cbn [upd_closed upd_active s_closed s_active].
  rewrite (pop_last_cb _ _ _ P), flat_map_app. cbn [flat_map]. rewrite !app_nil_r, blob_load_index_recs. reflexivity.
Qed.

Lemma abs_replace_active s : abs (replace_active s) = abs s.
Proof. rewrite replace_active_eq, abs_ensure_active. apply abs_close_active. Qed.

Theorem quiesce_abs : forall s, abs (quiesce K s) = abs s.
Proof.
  intros s. unfold quiesce. destruct (s_alive s && s_dump_req s); [|reflexivity].
  rewrite !abs_eq. cbn [upd_dump_req dump_all_closed upd_closed s_closed s_active].
  rewrite cb_map_opt, (flat_map_recs_ext _ _ blob_dump_recs). reflexivity.
Qed.

Lemma abs_closed_state files s : abs (closed_state files s) = flat_map b_recs files.
Proof. rewrite abs_eq. cbn [closed_state s_closed s_active]. rewrite cb_map_Some, app_nil_r. reflexivity. Qed.

Lemma closed_blobs_closed_state files s : closed_blobs (closed_state files s) = files.
Proof. apply cb_map_Some. Qed.

(* the operations that change the log: the two data operations of the storage, and damage done to a blob file by a crash *)
Definition is_data_op (o : op) : bool :=
  match o with OWrite _ _ _ _ _ _ | ODelete _ _ _ _ _ | OCut _ _ => true | _ => false end.

Lemma good_files_nil files : good_files [] files = files.
Proof. unfold good_files. induction files as [|x l IH]; [reflexivity|]. cbn [filter]. unfold is_bad at 1. cbn [existsb negb]. rewrite IH. reflexivity. Qed.

Lemma do_open_recs files bad quar c lazy f2 : increasing (map b_id files) ->
  flat_map b_recs (blobs_in_order (do_open K files bad quar c lazy f2)) = flat_map b_recs (good_files bad files).
Proof.
  intros Hinc. destruct (good_files bad files) as [|g0 gs] eqn:EG.
  - destruct (do_open_nogood files bad quar c lazy f2 EG) as [Hb _]. rewrite Hb.
    destruct (fresh_on_open files lazy); reflexivity.
  - assert (Hne : good_files bad files <> []) by (rewrite EG; discriminate).
    destruct (do_open_order files bad quar c lazy f2 Hinc Hne) as (_ & Hr & _). rewrite Hr, EG. reflexivity.
Qed.

Lemma do_open_old_or_new files quar c lazy f2 b' : increasing (map b_id files) ->
  In b' (blobs_in_order (do_open K files [] quar c lazy f2)) ->
  (exists b, In b files /\ b_id b = b_id b') \/ b_recs b' = [].
Proof.
  intros Hinc Hb'. destruct files as [|f0 fs] eqn:EF.
  - right. destruct (do_open_nogood [] [] quar c lazy f2 eq_refl) as [E _]. rewrite E in Hb'.
    destruct Hb' as [<-|[]]. reflexivity.
  - left. rewrite <- EF in *.
    destruct (do_open_order files [] quar c lazy f2 Hinc) as [E _]. { rewrite good_files_nil, EF. discriminate. }
    apply (in_map b_id) in Hb'. rewrite E, good_files_nil in Hb'. apply in_map_iff in Hb'.
    destruct Hb' as (b & Ei & Hb). exists b. split; assumption.
Qed.

Lemma do_open_keeps_recs files bad quar c lazy f2 f : In f (good_files bad files) ->
  exists b', In b' (blobs_in_order (do_open K files bad quar c lazy f2)) /\ b_id b' = b_id f /\ b_recs b' = b_recs f.
Proof.
  intros Hf. destruct (do_open_shape files bad quar c lazy f2) as (a & r & n & -> & Hs).
  assert (HB : In (blob_from_file K f) (sort_by_id (map (blob_from_file K) (good_files bad files)))).
  { apply in_sort_by_id, in_map, Hf. }
  assert (Hc : In (blob_from_file K f) r \/ a = Some (blob_load_index K (blob_from_file K f))).
  { destruct Hs as [(_ & _ & -> & _)|[(last & -> & E & _)|(_ & E & _)]].
    - left. exact HB.
    - rewrite E in HB. apply in_app_or in HB. destruct HB as [HB|[<-|[]]]; [left; exact HB|right; reflexivity].
    - rewrite E in HB. destruct HB. }
  unfold blobs_in_order. rewrite closed_blobs_cb. cbn [s_closed s_active]. rewrite cb_map_some_f.
  destruct Hc as [Hin| ->].
  - exists (blob_dump K (blob_from_file K f)). split; [apply in_or_app; left; apply in_map, Hin|].
    split; [rewrite blob_dump_id; apply blob_from_file_id|rewrite blob_dump_recs; apply blob_from_file_recs].
  - exists (blob_load_index K (blob_from_file K f)). split; [apply in_or_app; right; left; reflexivity|].
    split; [rewrite blob_load_index_id; apply blob_from_file_id|rewrite blob_load_index_recs; apply blob_from_file_recs].
Qed.

Lemma nondata_abs_noopen : forall s o, is_data_op o = false -> (forall l, o <> OOpen l) ->
  abs (fst (step K cfg s o)) = abs s.
Proof.
  intros s o Hd Hn. unfold step. destruct (needs_open o && negb (s_open s)); [reflexivity|].
  destruct o; try discriminate Hd; try reflexivity; cbn [fst].
  - pose proof (abs_close_active s) as H1. destruct (close_active s) as [s' e].
    cbn [fst] in *. rewrite abs_request_dump. exact H1.
  - pose proof (create_active_fst s) as E. destruct (create_active s) as [s' e]. cbn [fst] in E.
    rewrite E. apply abs_ensure_active.
  - pose proof (abs_restore_active s) as H1. destruct (restore_active K s) as [s' e]. exact H1.
  - rewrite abs_request_dump. destruct (worker_cases s close_active) as [->| ->]; [reflexivity|apply abs_close_active].
  - destruct (worker_cases s create_active) as [->| ->]; [reflexivity|].
    rewrite create_active_fst. apply abs_ensure_active.
  - destruct (worker_cases s (restore_active K)) as [->| ->]; [reflexivity|apply abs_restore_active].
  - rewrite abs_request_dump.
    destruct (s_alive s && eval_pred pred s); [apply abs_replace_active|reflexivity].
  - apply abs_request_dump.
  - apply quiesce_abs.
  - rewrite abs_closed_state, abs_eq. unfold do_close. rewrite flat_map_app, closed_blobs_cb.
    destruct (s_active s) as [a|]; [|reflexivity]. cbn [flat_map]. rewrite blob_dump_recs, app_nil_r. reflexivity.
  - apply abs_closed_state.
  - exfalso. apply (Hn lazy). reflexivity.
  - rewrite !abs_eq. cbn [upd_closed s_closed s_active]. rewrite cb_map_opt.
    rewrite flat_map_recs_ext; [reflexivity|]. intros b. destruct (b_id b =? id); reflexivity.
Qed.

Lemma bio_closed s : NoActiveWhenClosed s -> s_open s = false -> blobs_in_order s = closed_blobs s.
Proof. intros HN EO. unfold blobs_in_order. rewrite (HN EO). apply app_nil_r. Qed.

(* the log of the blob files that can be read back: what `open` makes the log *)
Definition readable_log (s : storage) : log := flat_map b_recs (good_files (s_bad s) (blobs_in_order s)).

Lemma readable_log_no_bad s : s_bad s = [] -> readable_log s = abs s.
Proof. intros HB. unfold readable_log. rewrite HB, good_files_nil. reflexivity. Qed.

(* After EVERY operation that is not a write, a delete or crash damage the log is as before -- except that `open` drops the records of the blob files a crash made unreadable
   (they are moved to the corrupted directory); while the storage is open there is no such file (IdsOk) *)
Theorem nondata_abs_gen : forall s o, is_data_op o = false -> IdsOk s -> NoActiveWhenClosed s ->
  abs (fst (step K cfg s o)) = match o with OOpen _ => readable_log s | _ => abs s end.
Proof.
  intros s o Hd H HN.
  assert (Hno : (forall l, o <> OOpen l) -> abs (fst (step K cfg s o)) = abs s) by (apply nondata_abs_noopen, Hd).
  destruct o; try (apply Hno; discriminate).
  destruct (s_open s) eqn:EO.
  - rewrite readable_log_no_bad by (apply H, EO). unfold step. cbn [needs_open andb]. rewrite EO. reflexivity.
  - unfold step. cbn [needs_open andb]. rewrite EO. cbn [fst]. apply IdsOk_iff in H. destruct H as [Hinc _].
    unfold abs. rewrite do_open_recs by (apply increasing_closed, Hinc).
    unfold readable_log. rewrite (bio_closed s HN EO). reflexivity.
Qed.

(* `s_bad s = []`: no blob file of the directory was made unreadable by a crash since the last start (always so while
   the storage is open) *)
Theorem nondata_abs : forall s o, is_data_op o = false -> IdsOk s -> NoActiveWhenClosed s -> s_bad s = [] ->
  abs (fst (step K cfg s o)) = abs s.
Proof.
  intros s o Hd H HN HB. rewrite (nondata_abs_gen s o Hd H HN). rewrite (readable_log_no_bad s HB).
  destruct o; reflexivity.
Qed.

Definition r0 : rec := mk_rec 0 0 false None 0 0 0.
Definition cex_blob : blob :=
  {| b_id := 0; b_recs := [r0]; b_idx := index_of [r0]; b_ondisk := false; b_idxfile := None |}.
Definition cex_closed : storage :=
  {| s_active := Some cex_blob; s_closed := []; s_next := 1; s_corrupted := 0; s_alive := false;
     s_dump_req := false; s_aged := false; s_open := false; s_f2 := false; s_bad := []; s_quar := [] |}.

(* IdsOk and BlobsOk do not say that a closed storage has no active blob; on such a state OOpen
   loses the records of the active blob (the state is not reachable: run_NoActiveWhenClosed) *)
Lemma nondata_abs_needs_NoActiveWhenClosed :
  IdsOk cex_closed /\ BlobsOk K cex_closed /\ s_open cex_closed = false /\
  abs (fst (step K cfg cex_closed (OOpen false))) <> abs cex_closed.
Proof.
  split; [|split; [|split]].
  - split; [split; exact I|]. split; [intros Ho; discriminate Ho|]. split; [intros Ho; discriminate Ho|].
    split; [intros b _ []|]. split; reflexivity.
  - split; [intros b []|]. intros b E. injection E as <-. split; [reflexivity|exact I].
  - reflexivity.
  - assert (E1 : abs (fst (step K cfg cex_closed (OOpen false))) = []) by reflexivity.
    assert (E2 : abs cex_closed = [r0]) by reflexivity.
    rewrite E1, E2. discriminate.
Qed.

Lemma open_quiesce s : s_open (quiesce K s) = s_open s.
Proof. apply frame_open, frame_quiesce. Qed.

Lemma NoActiveWhenClosed_open s : s_open s = true -> NoActiveWhenClosed s.
Proof. intros Ho E. rewrite Ho in E. discriminate E. Qed.

Lemma NoActiveWhenClosed_ext s s' :
  s_open s' = s_open s -> s_active s' = s_active s -> NoActiveWhenClosed s -> NoActiveWhenClosed s'.
Proof. unfold NoActiveWhenClosed. intros -> ->. auto. Qed.

Theorem init_NoActiveWhenClosed : NoActiveWhenClosed init_storage.
Proof. intros _. reflexivity. Qed.

Theorem quiesce_NoActiveWhenClosed : forall s, NoActiveWhenClosed s -> NoActiveWhenClosed (quiesce K s).
Proof. intros s. destruct (quiesce_cases K s) as [->| ->]; [auto|]. apply NoActiveWhenClosed_ext; reflexivity. Qed.

(* a running storage stays open until its session ends, and the end of a session leaves no blob object *)
Theorem step_NoActiveWhenClosed : forall s o,
  NoActiveWhenClosed s -> NoActiveWhenClosed (fst (step K cfg s o)).
Proof.
  intros s o HN. destruct (s_open s) eqn:Ho.
  - assert (Hs : o <> OClose -> o <> ODrop -> NoActiveWhenClosed (fst (step K cfg s o))).
    { intros Hc Hd. apply NoActiveWhenClosed_open. rewrite (frame_open _ _ (frame_session K cfg s o Ho Hc Hd)). exact Ho. }
    destruct o; try (apply Hs; discriminate); rewrite (step_open K cfg s _ Ho); intros _; reflexivity.
  - destruct (needs_open o) eqn:Hn; [rewrite (step_refused K cfg s o Hn Ho); exact HN|].
    destruct o; try discriminate Hn; unfold step; cbn [needs_open andb fst].
    + revert HN. apply NoActiveWhenClosed_ext; reflexivity.
    + rewrite Ho. apply NoActiveWhenClosed_open, open_do_open.
    + revert HN. apply NoActiveWhenClosed_ext; reflexivity.
    + revert HN. apply NoActiveWhenClosed_ext; [apply open_do_cut|apply active_do_cut].
Qed.

Lemma step_q_NoActiveWhenClosed s o : NoActiveWhenClosed s -> NoActiveWhenClosed (fst (step_q K cfg s o)).
Proof. intros HN. rewrite step_q_fst. apply quiesce_NoActiveWhenClosed, step_NoActiveWhenClosed, HN. Qed.

Theorem run_NoActiveWhenClosed : forall ops s,
  NoActiveWhenClosed s -> NoActiveWhenClosed (fst (run K cfg s ops)).
Proof. apply run_lift. exact step_q_NoActiveWhenClosed. Qed.

Lemma frame_qf s s' : frame s' = frame s -> qf s' = qf s.
Proof. intros E. apply frame_fields in E. destruct E as (_ & _ & E1 & E2 & E3). unfold qf. rewrite E1, E2, E3. reflexivity. Qed.

Lemma qf_quiesce s : qf (quiesce K s) = qf s.
Proof. apply frame_qf, frame_quiesce. Qed.

Definition is_cut (o : op) : bool := match o with OCut _ _ => true | _ => false end.
Definition touches_quar (o : op) : bool := match o with OOpen _ | OCut _ _ => true | _ => false end.

Theorem qf_step : forall s o, touches_quar o = false -> qf (fst (step K cfg s o)) = qf s.
Proof.
  intros s o Ht. destruct (s_open s) eqn:Ho.
  - destruct o; try discriminate Ht;
      try (apply frame_qf, frame_session; [exact Ho|discriminate|discriminate]);
      rewrite (step_open K cfg s _ Ho); reflexivity.
  - destruct (needs_open o) eqn:Hn; [rewrite (step_refused K cfg s o Hn Ho); reflexivity|].
    destruct o; try discriminate Hn; try discriminate Ht; reflexivity.
Qed.

(* the unreadable files: a crash adds one, a start moves them all away, nothing else touches them *)
Lemma bad_quiesce s : s_bad (quiesce K s) = s_bad s.
Proof. destruct (quiesce_cases K s) as [->| ->]; reflexivity. Qed.

Lemma bad_step_eq s o :
  s_bad (fst (step K cfg s o)) =
  match o with
  | OOpen _ => if s_open s then s_bad s else []
  | OCut id keep => s_bad (do_cut K s id keep)
  | _ => s_bad s
  end.
Proof.
  destruct (touches_quar o) eqn:Ht.
  - destruct o; try discriminate Ht; [|reflexivity].
    unfold step. cbn [needs_open andb]. destruct (s_open s); cbn [fst]; [reflexivity|apply do_open_quar].
  - pose proof (qf_step s o Ht) as E. apply qf_inv in E. destruct E as (_ & E & _). rewrite E.
    destruct o; try discriminate Ht; reflexivity.
Qed.

Theorem bad_nil_step : forall s o, (forall id, o <> OCut id None) -> s_bad s = [] ->
  s_bad (fst (step K cfg s o)) = [].
Proof.
  intros s o Hc HB. rewrite bad_step_eq. destruct o; try exact HB.
  - destruct (s_open s); [exact HB|reflexivity].
  - destruct keep as [j|]; [|destruct (Hc id eq_refl)]. unfold do_cut. destruct (s_open s); exact HB.
Qed.

Theorem bad_nil_step_q : forall s o, (forall id, o <> OCut id None) -> s_bad s = [] ->
  s_bad (fst (step_q K cfg s o)) = [].
Proof. intros s o Hc HB. rewrite step_q_fst, bad_quiesce. apply bad_nil_step; assumption. Qed.

Theorem bad_step_q : forall s o, is_cut o = false -> s_bad s = [] -> s_bad (fst (step_q K cfg s o)) = [].
Proof. intros s o Hc. apply bad_nil_step_q. intros id E. rewrite E in Hc. discriminate Hc. Qed.

Theorem step_q_nondata_abs_gen : forall s o,
  is_data_op o = false -> IdsOk s -> NoActiveWhenClosed s ->
  abs (fst (step_q K cfg s o)) = match o with OOpen _ => readable_log s | _ => abs s end.
Proof. intros s o Hd H HN. rewrite step_q_fst, quiesce_abs. apply nondata_abs_gen; assumption. Qed.

Theorem step_q_nondata_abs : forall s o,
  is_data_op o = false -> IdsOk s -> NoActiveWhenClosed s -> s_bad s = [] -> abs (fst (step_q K cfg s o)) = abs s.
Proof. intros s o Hd H HN HB. rewrite step_q_fst, quiesce_abs. apply nondata_abs; assumption. Qed.

Theorem init_Inv : Inv K init_storage.
Proof. split; [apply init_BlobsOk|]. split; [apply init_IdsOk|apply init_NoActiveWhenClosed]. Qed.

(* Every place that installs an active blob installs one whose index is in memory: new_blob
   (ensure_active, replace_active, init_new), blob_load_index (eager open, restore_active,
   push_deletion_record); blob_append keeps the state of the index; close and drop
   leave no active blob; the background dump touches closed blobs only. *)
Definition ActiveInMemory (s : storage) : Prop := forall b, s_active s = Some b -> b_ondisk b = false.

Lemma aim_ext s s' : s_active s' = s_active s -> ActiveInMemory s -> ActiveInMemory s'.
Proof. unfold ActiveInMemory. intros ->. auto. Qed.

Lemma aim_none s : s_active s = None -> ActiveInMemory s.
Proof. intros E b Hb. rewrite E in Hb. discriminate. Qed.

Lemma aim_some s b : s_active s = Some b -> b_ondisk b = false -> ActiveInMemory s.
Proof. intros E D x Hx. rewrite E in Hx. injection Hx as <-. exact D. Qed.

Theorem init_ActiveInMemory : ActiveInMemory init_storage.
Proof. apply aim_none. reflexivity. Qed.

Lemma aim_request_dump s : ActiveInMemory s -> ActiveInMemory (request_dump s).
Proof. destruct (request_dump_cases s) as [->| ->]; [auto|]. apply aim_ext; reflexivity. Qed.

Lemma aim_ensure_active s : ActiveInMemory s -> ActiveInMemory (ensure_active s).
Proof.
  intros H. unfold ensure_active. destruct (s_active s) as [a|] eqn:E; [exact H|].
  apply (aim_some _ (new_blob (s_next s))); reflexivity.
Qed.

Lemma aim_close_active s : ActiveInMemory s -> ActiveInMemory (fst (close_active s)).
Proof.
  intros H. unfold close_active. destruct (s_active s) as [a|] eqn:E; cbn [fst]; [|exact H].
  apply aim_none. reflexivity.
Qed.

Lemma aim_restore_active s : ActiveInMemory s -> ActiveInMemory (fst (restore_active K s)).
Proof.
  intros H. unfold restore_active. destruct (s_active s) as [a|] eqn:E; cbn [fst]; [exact H|].
  destruct (pop_last (s_closed s)) as [[b c]|] eqn:P; cbn [fst]; [|exact H].
  apply (aim_some _ (blob_load_index K b)); [reflexivity|apply blob_load_index_mem].
Qed.

Lemma aim_maybe_rotate s : ActiveInMemory s -> ActiveInMemory (maybe_rotate K cfg s).
Proof.
  intros H. destruct (maybe_rotate_cases K cfg s) as [->| ->]; [exact H|].
  rewrite replace_active_eq. apply aim_request_dump, aim_ensure_active, aim_close_active, H.
Qed.

Theorem quiesce_ActiveInMemory : forall s, ActiveInMemory s -> ActiveInMemory (quiesce K s).
Proof. intros s. destruct (quiesce_cases K s) as [->| ->]; [auto|]. apply aim_ext; reflexivity. Qed.

Lemma aim_do_open files bad quar c lazy f2 : ActiveInMemory (do_open K files bad quar c lazy f2).
Proof.
  destruct (do_open_shape files bad quar c lazy f2)
    as (a & r & n & -> & [(_ & -> & _)|[(last & -> & _)|(_ & _ & -> & _)]]).
  - apply aim_none. reflexivity.
  - apply (aim_some _ (blob_load_index K last)); [reflexivity|apply blob_load_index_mem].
  - apply (aim_some _ (new_blob (next_above (map b_id files ++ quar)))); reflexivity.
Qed.

(* with the active index in memory every write is acknowledged *)
Lemma do_write_mem s k ts meta msize dlen dseed :
  ActiveInMemory s ->
  ActiveInMemory (fst (do_write K cfg s k ts meta msize dlen dseed)) /\
  s_f2 (fst (do_write K cfg s k ts meta msize dlen dseed)) = s_f2 s /\
  snd (do_write K cfg s k ts meta msize dlen dseed) = RUnit.
Proof.
  intros H. apply aim_ensure_active in H. rewrite <- (f2_ensure_active s).
  destruct (do_write_cases K cfg s k ts meta msize dlen dseed) as [E|(a & b' & ok & EA & A & E)]; rewrite E; [auto|].
  pose proof (blob_append_mem a (mk_rec k ts false meta msize dlen dseed) (H a EA)) as Hok.
  pose proof (blob_append_ondisk a (mk_rec k ts false meta msize dlen dseed)) as Hd.
  rewrite A in Hok, Hd. cbn [fst snd] in Hok, Hd. subst ok. cbn [fst snd]. split; [|split; [|reflexivity]].
  - apply aim_maybe_rotate, (aim_some _ b'); [reflexivity|]. rewrite Hd. apply H, EA.
  - rewrite f2_maybe_rotate. reflexivity.
Qed.

Lemma do_write_ack s k ts meta msize dlen dseed :
  ActiveInMemory s -> snd (do_write K cfg s k ts meta msize dlen dseed) = RUnit.
Proof. intros H. apply (do_write_mem s k ts meta msize dlen dseed H). Qed.

Lemma aim_do_delete s k ts meta msize oip :
  ActiveInMemory s -> ActiveInMemory (fst (do_delete K s k ts meta msize oip)).
Proof.
  apply (do_delete_preserves K ActiveInMemory).
  - apply aim_ensure_active.
  - intros s0 a EA H. apply (aim_some _ (fst (fst (blob_delete K a (mk_rec k ts true meta msize 0 0) oip)))); [reflexivity|].
    apply blob_delete_mem, H, EA.
  - intros s0. apply aim_ext; reflexivity.
  - apply aim_request_dump.
Qed.

Lemma step_aim_f2 (c : bool) s o :
  ActiveInMemory s /\ s_f2 s = c -> ActiveInMemory (fst (step K cfg s o)) /\ s_f2 (fst (step K cfg s o)) = c.
Proof.
  assert (move : forall s s', (ActiveInMemory s -> ActiveInMemory s') -> s_f2 s' = s_f2 s ->
                 ActiveInMemory s /\ s_f2 s = c -> ActiveInMemory s' /\ s_f2 s' = c).
  { intros s0 s' Ha Ef [H F]. split; [apply Ha, H|rewrite Ef; exact F]. }
  apply (step_preserves K cfg (fun s => ActiveInMemory s /\ s_f2 s = c)).
  - intros s0 _. apply move; [apply aim_request_dump|apply f2_request_dump].
  - intros s0 _. apply move; [apply aim_ensure_active|apply f2_ensure_active].
  - intros s0 _. apply move; [apply aim_close_active|apply f2_close_active].
  - intros s0 _. apply move; [apply aim_restore_active|apply f2_restore_active].
  - intros s0 _. apply move; [apply quiesce_ActiveInMemory|apply f2_quiesce].
  - intros s0 k ts meta msize dlen dseed _ [H F].
    destruct (do_write_mem s0 k ts meta msize dlen dseed H) as (H1 & F1 & _). split; [exact H1|rewrite F1; exact F].
  - intros s0 k ts meta msize oip _. apply move; [apply aim_do_delete|apply f2_do_delete].
  - intros s0. apply move; [apply aim_ext; reflexivity|reflexivity].
  - intros s0 id. apply move; [apply aim_ext; reflexivity|reflexivity].
  - intros s0 _. apply move; [intros _; apply aim_none; reflexivity|reflexivity].
  - intros s0 _. apply move; [intros _; apply aim_none; reflexivity|reflexivity].
  - intros s0 lazy _. apply move; [intros _; apply aim_do_open|apply f2_do_open].
  - intros s0 id keep. apply move; [apply aim_ext, active_do_cut|apply f2_do_cut].
Qed.

Theorem step_ActiveInMemory : forall s o, ActiveInMemory s -> ActiveInMemory (fst (step K cfg s o)).
Proof. intros s o H. apply (step_aim_f2 (s_f2 s) s o (conj H eq_refl)). Qed.

(* ... and no write or delete is refused with ErrorKind::Index *)
Theorem step_no_index_error : forall s o, ActiveInMemory s -> snd (step K cfg s o) <> RErr EIndex.
Proof.
  intros s o H. unfold step. destruct (needs_open o && negb (s_open s)); [discriminate|].
  destruct o; cbn [snd]; try discriminate.
  - rewrite do_write_ack by exact H. discriminate.
  - destruct (do_delete_cases K s k ts meta msize oip) as (s1 & n & _ & [E|E]); rewrite E; discriminate.
  - unfold close_active. destruct (s_active s); discriminate.
  - unfold create_active. destruct (s_active s); discriminate.
  - unfold restore_active. destruct (s_active s); [discriminate|].
    destruct (pop_last (s_closed s)) as [[b c]|]; discriminate.
  - destruct (s_open s); discriminate.
Qed.

Theorem run_ActiveInMemory : forall ops s,
  ActiveInMemory s ->
  ActiveInMemory (fst (run K cfg s ops)) /\ s_f2 (fst (run K cfg s ops)) = s_f2 s.
Proof.
  intros ops s H.
  apply (run_lift K cfg (fun s' => ActiveInMemory s' /\ s_f2 s' = s_f2 s)); [|split; [exact H|reflexivity]].
  apply (step_q_lift K cfg (fun s' => ActiveInMemory s' /\ s_f2 s' = s_f2 s)); [exact (step_aim_f2 (s_f2 s))|].
  intros s0 [H0 F0]. split; [apply quiesce_ActiveInMemory, H0|rewrite f2_quiesce; exact F0].
Qed.

Theorem run_Inv_mem : forall ops s,
  Inv K s -> ActiveInMemory s -> s_f2 s = false -> Inv K (fst (run K cfg s ops)).
Proof.
  intros ops s (HB & HI & HN) HA F. split; [|split].
  - apply run_BlobsOk; [exact HB|]. rewrite (proj2 (run_ActiveInMemory ops s HA)). exact F.
  - apply run_IdsOk, HI.
  - apply run_NoActiveWhenClosed, HN.
Qed.

End K.

Print Assumptions init_BlobsOk.
Print Assumptions quiesce_BlobsOk.
Print Assumptions f2_quiesce.
Print Assumptions run_BlobsOk.
Print Assumptions init_IdsOk.
Print Assumptions step_IdsOk.
Print Assumptions quiesce_IdsOk.
Print Assumptions run_IdsOk.
Print Assumptions nondata_abs.
Print Assumptions nondata_abs_gen.
Print Assumptions step_q_nondata_abs_gen.
Print Assumptions bad_nil_step.
Print Assumptions qf_step.
Print Assumptions quiesce_abs.
Print Assumptions step_q_nondata_abs.
Print Assumptions run_NoActiveWhenClosed.
Print Assumptions init_Inv.
Print Assumptions nondata_abs_needs_NoActiveWhenClosed.
Print Assumptions step_ActiveInMemory.
Print Assumptions step_no_index_error.
Print Assumptions run_ActiveInMemory.
Print Assumptions run_Inv_mem.
