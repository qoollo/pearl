(* C07 "no harm": the storage only ever appends to the blobs it holds.

   One relation `good s s'` between states carries everything: every blob of s is extended by a blob of s' (same id,
   the old records a prefix of the new ones: lext), s_next does not decrease, and every blob of s' has the id of a blob
   of s or an id >= the old s_next (lfresh). It is a preorder, it holds across each move an operation is made of
   (StepProofs), hence across every operation on a running storage.

   The start of a closed storage is the exception: `do_open (closed_blobs s) ...` reads back the closed blobs only, and
   of these the files a crash left readable. So the statements about histories assume NoActiveWhenClosed s (an
   invariant: a closed storage that still held an active blob object would lose it) and speak of the blobs no crash
   touched. IdsOk is NOT needed: the statements are about membership, and `sort_by_id` keeps the members whatever
   their order. *)
Require Import Pearl.Base.Prelude Pearl.Storage.Model Pearl.Storage.Spec Pearl.Storage.Inv Pearl.Storage.InvProofs
               Pearl.Blob.Bytes.

Section K.
Variable K : N.
Variable cfg : config.

Definition prefix_of {A} (a b : list A) : Prop := exists t, b = a ++ t.

Lemma prefix_refl {A} (a : list A) : prefix_of a a.
Proof. exists []. symmetry. apply app_nil_r. Qed.

Lemma prefix_trans {A} (a b c : list A) : prefix_of a b -> prefix_of b c -> prefix_of a c.
Proof. intros [t ->] [u ->]. exists (t ++ u). symmetry. apply app_assoc. Qed.

Definition bext (b b' : blob) : Prop := b_id b' = b_id b /\ prefix_of (b_recs b) (b_recs b').

Lemma bext_refl b : bext b b.
Proof. split; [reflexivity|apply prefix_refl]. Qed.

Lemma bext_trans a b c : bext a b -> bext b c -> bext a c.
Proof. intros [H1 H2] [H3 H4]. split; [congruence|]. apply (prefix_trans _ _ _ H2 H4). Qed.

Lemma bext_same b b' : b_id b' = b_id b -> b_recs b' = b_recs b -> bext b b'.
Proof. intros Hi Hr. split; [exact Hi|]. rewrite Hr. apply prefix_refl. Qed.

Lemma bext_dump b : bext b (blob_dump K b).
Proof. apply bext_same; [apply blob_dump_id|apply blob_dump_recs]. Qed.

Lemma bext_load_index b : bext b (blob_load_index K b).
Proof. apply bext_same; [apply blob_load_index_id|apply blob_load_index_recs]. Qed.

Lemma bext_append b r : bext b (fst (blob_append b r)).
Proof. split; [apply blob_append_id|]. rewrite blob_append_recs. exists [r]. reflexivity. Qed.

Lemma bext_delete b mk oip : bext b (fst (fst (blob_delete K b mk oip))).
Proof.
  unfold blob_delete.
  destruct (negb oip || match idx_get_latest (b_idx b) (r_key mk) with Found _ => true | _ => false end);
    [|apply bext_refl].
  pose proof (bext_append (blob_load_index K b) mk) as HA.
  destruct (blob_append (blob_load_index K b) mk) as [b2 ok2].
  apply (bext_trans _ _ _ (bext_load_index b) HA).
Qed.

Definition lext (l l' : list blob) : Prop := forall b, In b l -> exists b', In b' l' /\ bext b b'.

Definition lfresh (n : N) (l l' : list blob) : Prop :=
  forall b', In b' l' -> (exists b, In b l /\ b_id b = b_id b') \/ n <= b_id b'.

Lemma lext_trans l1 l2 l3 : lext l1 l2 -> lext l2 l3 -> lext l1 l3.
Proof.
  intros H1 H2 b Hb. destruct (H1 b Hb) as (b1 & Hb1 & E1). destruct (H2 b1 Hb1) as (b2 & Hb2 & E2).
  exists b2. split; [exact Hb2|apply (bext_trans _ _ _ E1 E2)].
Qed.

Lemma Forall2_bext_refl l : Forall2 bext l l.
Proof. apply Forall2_diag, bext_refl. Qed.

Lemma Forall2_lext l l' : Forall2 bext l l' -> lext l l'.
Proof. exact (Forall2_in_l bext l l'). Qed.

Lemma Forall2_bext_ids l l' : Forall2 bext l l' -> forall b', In b' l' -> exists b, In b l /\ b_id b = b_id b'.
Proof.
  intros HF b' Hb'. destruct (Forall2_in_r _ _ _ HF b' Hb') as (b & Hb & [E _]).
  exists b. split; [exact Hb|symmetry; exact E].
Qed.

Definition oa (o : option blob) : list blob := match o with Some b => [b] | None => [] end.

Lemma bio_eq s : blobs_in_order s = cb (s_closed s) ++ oa (s_active s).
Proof. reflexivity. Qed.

Definition good (s s' : storage) : Prop :=
  lext (blobs_in_order s) (blobs_in_order s') /\
  s_next s <= s_next s' /\
  lfresh (s_next s) (blobs_in_order s) (blobs_in_order s').

Lemma good_trans s1 s2 s3 : good s1 s2 -> good s2 s3 -> good s1 s3.
Proof.
  intros (HL1 & HN1 & HF1) (HL2 & HN2 & HF2). split; [apply (lext_trans _ _ _ HL1 HL2)|]. split; [lia|].
  intros b3 Hb3. destruct (HF2 b3 Hb3) as [(b2 & Hb2 & E2)|H]; [|right; lia].
  destruct (HF1 b2 Hb2) as [(b1 & Hb1 & E1)|H].
  - left. exists b1. split; [exact Hb1|congruence].
  - right. rewrite <- E2. exact H.
Qed.

Lemma good_Forall2 s s' :
  Forall2 bext (blobs_in_order s) (blobs_in_order s') -> s_next s' = s_next s -> good s s'.
Proof.
  intros HF HN. split; [apply Forall2_lext, HF|]. split; [lia|].
  intros b' Hb'. left. apply (Forall2_bext_ids _ _ HF b' Hb').
Qed.

Lemma good_same s s' : blobs_in_order s' = blobs_in_order s -> s_next s' = s_next s -> good s s'.
Proof. intros Hb HN. apply good_Forall2; [rewrite Hb; apply Forall2_bext_refl|exact HN]. Qed.

Lemma good_refl s : good s s.
Proof. apply good_same; reflexivity. Qed.

Lemma good_ext s s' :
  s_closed s' = s_closed s -> s_active s' = s_active s -> s_next s' = s_next s -> good s s'.
Proof. intros Hc Ha HN. apply good_same; [|exact HN]. rewrite !bio_eq, Hc, Ha. reflexivity. Qed.

Lemma good_upd_active s a b' : s_active s = Some a -> bext a b' -> good s (upd_active s (Some b')).
Proof.
  intros E Hb. apply good_Forall2; [|reflexivity]. rewrite !bio_eq, E. cbn [upd_active s_closed s_active oa].
  apply Forall2_app; [apply Forall2_bext_refl|]. constructor; [exact Hb|constructor].
Qed.

Lemma good_closed s s' :
  Forall2 bext (cb (s_closed s)) (cb (s_closed s')) -> s_active s' = s_active s -> s_next s' = s_next s -> good s s'.
Proof.
  intros H Ha HN. apply good_Forall2; [|exact HN]. rewrite !bio_eq, Ha.
  apply Forall2_app; [exact H|apply Forall2_bext_refl].
Qed.

Lemma good_request_dump s : good s (request_dump s).
Proof. unfold request_dump. destruct (s_alive s); [apply good_ext; reflexivity|apply good_refl]. Qed.

Lemma good_ensure_active s : good s (ensure_active s).
Proof.
  unfold ensure_active. destruct (s_active s) as [a|] eqn:E; [apply good_refl|].
  unfold good. rewrite !bio_eq, E. cbn [s_closed s_active s_next oa]. rewrite app_nil_r.
  split; [|split; [lia|]].
  - intros b Hin. exists b. split; [apply in_or_app; left; exact Hin|apply bext_refl].
  - intros b' Hin. apply in_app_or in Hin. destruct Hin as [Hin|[<-|[]]].
    + left. exists b'. split; [exact Hin|reflexivity].
    + right. apply N.le_refl.
Qed.

Lemma good_close_active s : good s (fst (close_active s)).
Proof.
  unfold close_active. destruct (s_active s) as [a|] eqn:E; cbn [fst]; [|apply good_refl].
  apply good_same; [|reflexivity]. rewrite !bio_eq, E.
  cbn [push_closed upd_closed upd_active s_closed s_active oa]. rewrite cb_app, app_nil_r. reflexivity.
Qed.

Lemma good_restore_active s : good s (fst (restore_active K s)).
Proof.
  unfold restore_active. destruct (s_active s) as [a|] eqn:E; cbn [fst]; [apply good_refl|].
  destruct (pop_last (s_closed s)) as [[b c]|] eqn:P; cbn [fst]; [|apply good_refl].
  apply good_Forall2; [|reflexivity]. rewrite !bio_eq, E. cbn [upd_closed upd_active s_closed s_active oa].
  rewrite (pop_last_cb _ _ _ P), app_nil_r.
  apply Forall2_app; [apply Forall2_bext_refl|]. constructor; [apply bext_load_index|constructor].
Qed.

Lemma good_maybe_rotate s : good s (maybe_rotate K cfg s).
Proof.
  destruct (maybe_rotate_cases K cfg s) as [->| ->]; [apply good_refl|]. rewrite replace_active_eq.
  apply (good_trans _ _ _ (good_close_active s)), (good_trans _ _ _ (good_ensure_active _)), good_request_dump.
Qed.

Lemma good_do_write s k ts meta msize dlen dseed :
  good s (fst (do_write K cfg s k ts meta msize dlen dseed)).
Proof.
  apply (do_write_preserves K cfg (good s)); [| | | |apply good_refl].
  - intros s0 H. apply (good_trans _ _ _ H), good_ensure_active.
  - intros s0 a EA H. apply (good_trans _ _ _ H), (good_upd_active s0 a); [exact EA|apply bext_append].
  - intros s0 H. apply (good_trans _ _ _ H), good_maybe_rotate.
  - intros s0 H. apply (good_trans _ _ _ H), good_ext; reflexivity.
Qed.

Lemma delete_in_closed_bext l mk : Forall2 bext (cb l) (cb (fst (fst (delete_in_closed K l mk)))).
Proof.
  rewrite delete_in_closed_map, (cb_map_opt (fun b => fst (fst (blob_delete K b mk true)))).
  apply Forall2_map_r. intros b. apply bext_delete.
Qed.

Lemma good_do_delete s k ts meta msize oip : good s (fst (do_delete K s k ts meta msize oip)).
Proof.
  apply (do_delete_preserves K (good s)); [| | | |apply good_refl].
  - intros s0 H. apply (good_trans _ _ _ H), good_ensure_active.
  - intros s0 a EA H. apply (good_trans _ _ _ H), (good_upd_active s0 a); [exact EA|apply bext_delete].
  - intros s0 H. apply (good_trans _ _ _ H), good_closed; [apply delete_in_closed_bext|reflexivity|reflexivity].
  - intros s0 H. apply (good_trans _ _ _ H), good_request_dump.
Qed.

Lemma good_quiesce s : good s (quiesce K s).
Proof.
  destruct (quiesce_cases K s) as [->| ->]; [apply good_refl|]. apply good_closed; [|reflexivity|reflexivity].
  cbn [upd_dump_req dump_all_closed upd_closed s_closed]. rewrite cb_map_opt. apply Forall2_map_r, bext_dump.
Qed.

Lemma good_closed_state files s : Forall2 bext (blobs_in_order s) files -> good s (closed_state files s).
Proof.
  intros H. apply good_Forall2; [|reflexivity]. rewrite (bio_eq (closed_state files s)).
  cbn [closed_state s_closed s_active oa]. rewrite cb_map_Some, app_nil_r. exact H.
Qed.

Lemma good_rm_index s id :
  good s (upd_closed s (map (fun o => match o with
                                      | Some b => Some (if b_id b =? id then rm_index b else b)
                                      | None => None end) (s_closed s))).
Proof.
  apply good_closed; [|reflexivity|reflexivity]. cbn [upd_closed s_closed]. rewrite cb_map_opt. apply Forall2_map_r.
  intros b. destruct (b_id b =? id); [apply bext_same; reflexivity|apply bext_refl].
Qed.

(* every operation of the storage except the re-opening of a closed storage (crash damage between two sessions, OCut,
   is not an operation of the storage: on an open storage it is the no-op) *)
Lemma step_good s o : (forall l, o = OOpen l -> s_open s = true) -> (forall id k, o = OCut id k -> s_open s = true) ->
  good s (fst (step K cfg s o)).
Proof.
  intros HO HC. destruct (s_open s) eqn:Ho.
  - assert (Hs : o <> OClose -> o <> ODrop -> good s (fst (step K cfg s o))).
    { intros Hc Hd. apply (session_preserves K cfg (good s)); try assumption; try apply good_refl.
      - intros s0 _ H. apply (good_trans _ _ _ H), good_request_dump.
      - intros s0 _ H. apply (good_trans _ _ _ H), good_ensure_active.
      - intros s0 _ H. apply (good_trans _ _ _ H), good_close_active.
      - intros s0 _ H. apply (good_trans _ _ _ H), good_restore_active.
      - intros s0 _ H. apply (good_trans _ _ _ H), good_quiesce.
      - intros s0 k ts meta msize dlen dseed _ H. apply (good_trans _ _ _ H), good_do_write.
      - intros s0 k ts meta msize oip _ H. apply (good_trans _ _ _ H), good_do_delete.
      - intros s0 H. apply (good_trans _ _ _ H), good_ext; reflexivity.
      - intros s0 id H. apply (good_trans _ _ _ H), good_rm_index. }
    destruct o; try (apply Hs; discriminate); rewrite (step_open K cfg s _ Ho); cbn [fst].
    + apply good_closed_state. unfold do_close, blobs_in_order.
      apply Forall2_app; [apply Forall2_bext_refl|]. destruct (s_active s) as [a|]; [|constructor].
      constructor; [apply bext_dump|constructor].
    + apply good_closed_state, Forall2_bext_refl.
  - destruct (needs_open o) eqn:Hn; [rewrite (step_refused K cfg s o Hn Ho); apply good_refl|].
    destruct o; try discriminate Hn.
    + apply good_ext; reflexivity.
    + discriminate (HO lazy eq_refl).
    + apply good_rm_index.
    + discriminate (HC id keep eq_refl).
Qed.

Lemma step_q_good s o : s_open s = true -> good s (fst (step_q K cfg s o)).
Proof.
  intros EO. rewrite step_q_fst. apply (good_trans _ (fst (step K cfg s o))); [|apply good_quiesce].
  apply step_good; intros; exact EO.
Qed.

(* re-opening: every readable file is read back, whatever the order of the ids *)
Lemma do_open_lext files bad quar c lazy f2 :
  lext (good_files bad files) (blobs_in_order (do_open K files bad quar c lazy f2)).
Proof.
  intros b Hb. destruct (do_open_keeps_recs K files bad quar c lazy f2 b Hb) as (b' & Hb' & Hi & Hr).
  exists b'. split; [exact Hb'|apply bext_same; assumption].
Qed.

(* the blob files a history's crashes damaged *)
Definition cut_ids (ops : list op) : list N := flat_map (fun o => match o with OCut id _ => [id] | _ => [] end) ops.

Lemma cut_ids_cons o ops : cut_ids (o :: ops) = cut_ids [o] ++ cut_ids ops.
Proof. unfold cut_ids. cbn [flat_map]. rewrite app_nil_r. reflexivity. Qed.

(* a history without crash damage *)
Definition no_cut (ops : list op) : Prop := forall o, In o ops -> is_cut o = false.

Lemma no_cut_cons o r : no_cut (o :: r) -> is_cut o = false /\ no_cut r.
Proof. intros H. split; [apply H; left; reflexivity|intros x Hx; apply H; right; exact Hx]. Qed.

Lemma no_cut_ids ops : no_cut ops -> cut_ids ops = [].
Proof.
  induction ops as [|o ops IH]; intros H; [reflexivity|]. apply no_cut_cons in H. destruct H as [Ho Hr].
  rewrite cut_ids_cons, (IH Hr). destruct o; try discriminate Ho; reflexivity.
Qed.

(* A blob whose file no crash touched -- not cut by this step, not left unreadable by an earlier crash -- is extended.
   (A file that WAS cut: CrashProofs.cut_boundary_restart. One left unreadable is moved to the corrupted directory by
   the next open -- renamed, not modified, but no longer a blob of the storage: CrashProofs.cut_inside_quarantines.) *)
Lemma step_q_lext_uncut s o b :
  NoActiveWhenClosed s -> In b (blobs_in_order s) -> ~ In (b_id b) (s_bad s) -> ~ In (b_id b) (cut_ids [o]) ->
  exists b', In b' (blobs_in_order (fst (step_q K cfg s o))) /\ bext b b'.
Proof.
  intros HN Hb Hnb Hnc. rewrite step_q_fst.
  enough (exists b1, In b1 (blobs_in_order (fst (step K cfg s o))) /\ bext b b1) as (b1 & Hb1 & E1).
  { destruct (proj1 (good_quiesce (fst (step K cfg s o))) b1 Hb1) as (b2 & Hb2 & E2).
    exists b2. split; [exact Hb2|apply (bext_trans _ _ _ E1 E2)]. }
  assert (HG : (forall l, o = OOpen l -> s_open s = true) -> (forall id k, o = OCut id k -> s_open s = true) ->
               exists b', In b' (blobs_in_order (fst (step K cfg s o))) /\ bext b b').
  { intros H1 H2. apply (proj1 (step_good s o H1 H2)), Hb. }
  destruct (s_open s) eqn:EO; [apply HG; intros; reflexivity|].
  pose proof (bio_closed s HN EO) as EB.
  destruct o; try (apply HG; intros; discriminate); clear HG.
  - unfold step. cbn [needs_open andb]. rewrite EO. cbn [fst]. apply do_open_lext.
    apply in_good_files. split; [rewrite <- EB; exact Hb|exact Hnb].
  - unfold step. cbn [needs_open andb fst]. exists b. split; [|apply bext_refl].
    rewrite bio_eq, active_do_cut, closed_do_cut, (HN EO). cbn [oa]. rewrite app_nil_r.
    rewrite EB, closed_blobs_cb in Hb. destruct keep as [j|]; [|exact Hb]. rewrite EO, cb_map_opt.
    assert (Ec : cut_blob K id j b = b).
    { unfold cut_blob. destruct (N.eqb_spec (b_id b) id) as [E|_]; [|reflexivity].
      exfalso. apply Hnc. cbn. left. symmetry. exact E. }
    rewrite <- Ec. apply in_map, Hb.
Qed.

(* `is_cut o = false`, `s_bad s = []`: the statement is about what the STORAGE does to the blobs *)
Lemma step_q_lext s o :
  NoActiveWhenClosed s -> is_cut o = false -> s_bad s = [] ->
  lext (blobs_in_order s) (blobs_in_order (fst (step_q K cfg s o))).
Proof.
  intros HN Hc HB b Hb. apply (step_q_lext_uncut s o b HN Hb).
  - rewrite HB. intros [].
  - destruct o; try discriminate Hc; intros [].
Qed.

Lemma bad_step_incl s o i :
  In i (s_bad (fst (step K cfg s o))) -> In i (s_bad s) \/ In i (cut_ids [o]).
Proof.
  rewrite bad_step_eq. destruct o; auto.
  - destruct (s_open s); [auto|intros []].
  - unfold do_cut. destruct (s_open s); [auto|]. destruct keep as [j|]; [auto|].
    destruct (existsb (fun b => b_id b =? id) (closed_blobs s)); [|auto].
    cbn [upd_bad s_bad]. unfold add_bad. destruct (existsb (N.eqb id) (s_bad s)); [auto|].
    intros Hi. apply in_app_or in Hi. destruct Hi as [Hi|[<-|[]]]; [left; exact Hi|right; left; reflexivity].
Qed.

(* with crash damage anywhere in the history: a blob whose file no crash touched -- not cut by this history, not left
   unreadable by an earlier one -- still exists with the same id, its old records a prefix of the new ones *)
Lemma run_lext_uncut ops : forall s b,
  NoActiveWhenClosed s -> In b (blobs_in_order s) -> ~ In (b_id b) (s_bad s) -> ~ In (b_id b) (cut_ids ops) ->
  exists b', In b' (blobs_in_order (fst (run K cfg s ops))) /\ bext b b'.
Proof.
  induction ops as [|o ops IH]; intros s b HN Hb Hnb Hnc; [exists b; split; [exact Hb|apply bext_refl]|].
  rewrite cut_ids_cons in Hnc. rewrite run_cons.
  assert (Hnc1 : ~ In (b_id b) (cut_ids [o])) by (intros H; apply Hnc, in_or_app; left; exact H).
  destruct (step_q_lext_uncut s o b HN Hb Hnb Hnc1) as (b1 & Hb1 & E1).
  assert (Hnb1 : ~ In (b_id b1) (s_bad (fst (step_q K cfg s o)))).
  { rewrite (proj1 E1), step_q_fst, bad_quiesce. intros H.
    destruct (bad_step_incl s o _ H) as [H'|H']; [exact (Hnb H')|exact (Hnc1 H')]. }
  assert (Hnc2 : ~ In (b_id b1) (cut_ids ops)).
  { rewrite (proj1 E1). intros H. apply Hnc, in_or_app. right. exact H. }
  destruct (IH _ b1 (step_q_NoActiveWhenClosed K cfg s o HN) Hb1 Hnb1 Hnc2) as (b2 & Hb2 & E2).
  exists b2. split; [exact Hb2|apply (bext_trans _ _ _ E1 E2)].
Qed.

(* no operation ever removes or changes a record of an existing blob (`no_cut ops`, `s_bad s = []`: no crash damage) *)
Lemma run_lext ops s :
  NoActiveWhenClosed s -> no_cut ops -> s_bad s = [] ->
  lext (blobs_in_order s) (blobs_in_order (fst (run K cfg s ops))).
Proof.
  intros HN Hc HB b Hb. apply (run_lext_uncut ops s b HN Hb).
  - rewrite HB. intros [].
  - rewrite (no_cut_ids ops Hc). intros [].
Qed.

(* between any two points of a history that starts in the initial state *)
Corollary history_append_only : forall ops1 ops2 b,
  no_cut ops2 -> s_bad (fst (run K cfg init_storage ops1)) = [] ->
  In b (blobs_in_order (fst (run K cfg init_storage ops1))) ->
  exists b', In b' (blobs_in_order (fst (run K cfg (fst (run K cfg init_storage ops1)) ops2))) /\
             b_id b' = b_id b /\ prefix_of (b_recs b) (b_recs b').
Proof.
  intros ops1 ops2 b Hc HB Hb.
  exact (run_lext ops2 _ (run_NoActiveWhenClosed K cfg ops1 _ init_NoActiveWhenClosed) Hc HB b Hb).
Qed.

(* NoActiveWhenClosed cannot be dropped: a closed storage still holding an active blob (a state that
   satisfies IdsOk and BlobsOk but is not reachable) loses that blob's record when re-opened *)
Lemma append_only_needs_NoActiveWhenClosed :
  IdsOk cex_closed /\ BlobsOk K cex_closed /\
  exists b, In b (blobs_in_order cex_closed) /\
    ~ exists b', In b' (blobs_in_order (fst (step_q K cfg cex_closed (OOpen false)))) /\
                 b_id b' = b_id b /\ prefix_of (b_recs b) (b_recs b').
Proof.
  destruct (nondata_abs_needs_NoActiveWhenClosed K cfg) as (HI & HB & _ & _).
  split; [exact HI|]. split; [exact HB|].
  exists cex_blob. split; [left; reflexivity|].
  intros (b' & Hin & _ & [t Hp]).
  assert (E : blobs_in_order (fst (step_q K cfg cex_closed (OOpen false))) = [new_blob 0]) by reflexivity.
  rewrite E in Hin. destruct Hin as [<-|[]]. cbn [new_blob b_recs cex_blob app] in Hp. discriminate Hp.
Qed.

(* byte level: appending records only appends bytes to the blob file *)
Lemma fold_bytes_prefix t : forall acc,
  prefix_of acc (fold_left (fun acc r => acc ++ fst (rec_bytes K r (N.of_nat (length acc)))) t acc).
Proof.
  induction t as [|x t IH]; intros acc; cbn [fold_left]; [apply prefix_refl|].
  apply (prefix_trans _ (acc ++ fst (rec_bytes K x (N.of_nat (length acc))))); [|apply IH].
  eexists. reflexivity.
Qed.

Theorem blob_bytes_prefix : forall rs t, prefix_of (blob_file_bytes K rs) (blob_file_bytes K (rs ++ t)).
Proof. intros rs t. unfold blob_file_bytes. rewrite fold_left_app. apply fold_bytes_prefix. Qed.

Lemma bext_file b b' :
  bext b b' -> b_id b' = b_id b /\ prefix_of (blob_file_bytes K (b_recs b)) (blob_file_bytes K (b_recs b')).
Proof. intros [Hi [t ->]]. split; [exact Hi|apply blob_bytes_prefix]. Qed.

(* hence the old blob file is a byte prefix of the new one *)
Corollary step_file_append_only : forall s o b,
  NoActiveWhenClosed s -> is_cut o = false -> s_bad s = [] ->
  In b (blobs_in_order s) ->
  exists b', In b' (blobs_in_order (fst (step_q K cfg s o))) /\ b_id b' = b_id b /\
             prefix_of (blob_file_bytes K (b_recs b)) (blob_file_bytes K (b_recs b')).
Proof.
  intros s o b HN Hc HB Hb. destruct (step_q_lext s o HN Hc HB b Hb) as (b' & Hin & E).
  exists b'. split; [exact Hin|apply bext_file, E].
Qed.

Corollary run_file_append_only : forall ops s b,
  NoActiveWhenClosed s -> no_cut ops -> s_bad s = [] ->
  In b (blobs_in_order s) ->
  exists b', In b' (blobs_in_order (fst (run K cfg s ops))) /\ b_id b' = b_id b /\
             prefix_of (blob_file_bytes K (b_recs b)) (blob_file_bytes K (b_recs b')).
Proof.
  intros ops s b HN Hc HB Hb. destruct (run_lext ops s HN Hc HB b Hb) as (b' & Hin & E).
  exists b'. split; [exact Hin|apply bext_file, E].
Qed.

Definition is_query (o : op) : bool :=
  match o with ORead _ | OReadWith _ _ | OContains _ | OReadAll _ | OReadAllDm _ | OCounts => true | _ => false end.

Theorem queries_pure : forall s o, is_query o = true -> fst (step K cfg s o) = s.
Proof.
  intros s o Hq. unfold step. destruct (needs_open o && negb (s_open s)); [reflexivity|].
  destruct o; try discriminate Hq; reflexivity.
Qed.

(* with the implicit quiesce, a query can only let an already requested index dump happen; the blobs,
   their ids and their records are untouched (what the storage holds, `abs`, is unchanged) *)
Corollary queries_abs : forall s o, is_query o = true -> abs (fst (step_q K cfg s o)) = abs s.
Proof. intros s o Hq. rewrite step_q_fst, (queries_pure s o Hq). apply quiesce_abs. Qed.

(* a blob created by a step gets an id >= the old next id *)
Theorem new_blob_id_fresh : forall s o b',
  s_open s = true ->
  In b' (blobs_in_order (fst (step_q K cfg s o))) ->
  (forall b, In b (blobs_in_order s) -> b_id b <> b_id b') ->
  s_next s <= b_id b'.
Proof.
  intros s o b' EO Hin Hne. destruct (step_q_good s o EO) as (_ & _ & HF).
  destruct (HF b' Hin) as [(b & Hb & E)|H]; [|exact H]. exfalso. apply (Hne b Hb E).
Qed.

Theorem new_blob_id_above : forall s o b',
  IdsOk s -> s_open s = true ->
  In b' (blobs_in_order (fst (step_q K cfg s o))) ->
  (exists b, In b (blobs_in_order s) /\ b_id b = b_id b') \/
  (forall b, In b (blobs_in_order s) -> b_id b < b_id b').
Proof.
  intros s o b' (_ & HI & _) EO Hin. destruct (step_q_good s o EO) as (_ & _ & HF).
  destruct (HF b' Hin) as [H|H]; [left; exact H|]. right.
  intros b Hb. specialize (HI EO b Hb). lia.
Qed.

Theorem next_id_monotone : forall s o, s_open s = true -> s_next s <= s_next (fst (step_q K cfg s o)).
Proof. intros s o EO. destruct (step_q_good s o EO) as (_ & H & _). exact H. Qed.

(* why new_blob_id_fresh is stated for an open storage (where blobs are created by ensure_active and replace_active
   only, both with id s_next): on a closed storage OOpen on an empty directory creates blob 0 (init_new), and IdsOk does
   not constrain s_next of a closed storage *)
Definition cex_next : storage :=
  {| s_active := None; s_closed := []; s_next := 5; s_corrupted := 0; s_alive := false;
     s_dump_req := false; s_aged := false; s_open := false; s_f2 := false; s_bad := []; s_quar := [] |}.

Lemma new_blob_id_fresh_needs_open :
  IdsOk cex_next /\ NoActiveWhenClosed cex_next /\ BlobsOk K cex_next /\
  exists b', In b' (blobs_in_order (fst (step_q K cfg cex_next (OOpen false)))) /\
             (forall b, In b (blobs_in_order cex_next) -> b_id b <> b_id b') /\
             ~ s_next cex_next <= b_id b'.
Proof.
  split; [split; [exact I|split; [intros Ho; discriminate Ho|]]|].
  { split; [intros Ho; discriminate Ho|]. split; [intros b []|]. split; reflexivity. }
  split; [intros _; reflexivity|].
  split; [split; [intros b []|intros b Hb; discriminate Hb]|].
  exists (new_blob 0). split; [left; reflexivity|]. split; [intros b []|].
  cbn [cex_next s_next new_blob b_id]. lia.
Qed.

End K.

Print Assumptions history_append_only.
Print Assumptions append_only_needs_NoActiveWhenClosed.
Print Assumptions blob_bytes_prefix.
Print Assumptions step_file_append_only.
Print Assumptions run_file_append_only.
Print Assumptions queries_pure.
Print Assumptions queries_abs.
Print Assumptions new_blob_id_fresh.
Print Assumptions new_blob_id_above.
Print Assumptions next_id_monotone.
Print Assumptions new_blob_id_fresh_needs_open.
