(* Run-level corollaries: what holds after EVERY history of the L3 model (no bound on its length).

   The active blob never has its index on disk (InvProofs.ActiveInMemory), so the ghost flag s_f2 is never raised
   and no operation is answered with ErrorKind::Index. *)
Require Import Pearl.Base.Prelude Pearl.Storage.Model Pearl.Storage.Spec Pearl.Storage.Inv
               Pearl.Storage.ReadProofs Pearl.Storage.InvProofs.

Section K.
Variable K : N.
Variable cfg : config.

Definition reach (ops : list op) : storage := fst (run K cfg init_storage ops).

Lemma reach_ActiveInMemory ops : ActiveInMemory (reach ops).
Proof. apply (run_ActiveInMemory K cfg ops init_storage), init_ActiveInMemory. Qed.

Theorem never_f2 ops : s_f2 (reach ops) = false.
Proof. exact (proj2 (run_ActiveInMemory K cfg ops init_storage init_ActiveInMemory)). Qed.

(* no operation is ever answered with ErrorKind::Index; in particular no write and no delete *)
Theorem never_index_error ops o : snd (step K cfg (reach ops) o) <> RErr EIndex.
Proof. apply step_no_index_error, reach_ActiveInMemory. Qed.

Theorem write_never_index_error ops k ts meta msize dlen dseed :
  snd (step K cfg (reach ops) (OWrite k ts meta msize dlen dseed)) <> RErr EIndex.
Proof. apply never_index_error. Qed.

Theorem delete_never_index_error ops k ts meta msize oip :
  snd (step K cfg (reach ops) (ODelete k ts meta msize oip)) <> RErr EIndex.
Proof. apply never_index_error. Qed.

Theorem write_acknowledged ops k ts meta msize dlen dseed :
  s_open (reach ops) = true ->
  snd (step K cfg (reach ops) (OWrite k ts meta msize dlen dseed)) = RUnit.
Proof.
  intros Ho. rewrite (step_open K cfg _ _ Ho). apply do_write_ack, reach_ActiveInMemory.
Qed.

Lemma reach_Inv ops : Inv K (reach ops).
Proof. apply run_Inv_mem; [apply init_Inv|apply init_ActiveInMemory|reflexivity]. Qed.

Lemma reach_IdxInv ops : IdxInv (reach ops).
Proof. apply (BlobsOk_IdxInv K). apply reach_Inv. Qed.

Lemma reach_IdsOk ops : IdsOk (reach ops).
Proof. apply reach_Inv. Qed.

Lemma reach_read_latest ops k :
  get_latest_entry (reach ops) k None = spec_read (abs (reach ops)) k.
Proof. apply read_latest, reach_IdxInv. Qed.

Lemma reach_open_no_bad ops : s_open (reach ops) = true -> s_bad (reach ops) = [].
Proof. destruct (reach_IdsOk ops) as (_ & _ & _ & _ & Hbad & _). exact Hbad. Qed.

(* C04 / C03: anything that is not a write or a delete -- nor damage done to a blob file by a crash -- leaves the log
   untouched. `s_bad (reach ops) = []`: no blob file was made unreadable by a crash since the last start (always so
   while the storage is open: reach_open_no_bad); otherwise the next `open` moves the unreadable files to the corrupted
   directory and their records leave the log (CrashProofs.cut_inside_quarantines). *)
Lemma reach_nondata_abs ops o :
  is_data_op o = false -> s_bad (reach ops) = [] -> abs (fst (step_q K cfg (reach ops) o)) = abs (reach ops).
Proof.
  intros Ho HB. apply step_q_nondata_abs; [exact Ho|apply reach_Inv|apply reach_Inv|exact HB].
Qed.

(* the same for EVERY history, crash damage included: the log is as before, except that `open` drops the records of
   the blob files a crash made unreadable *)
Lemma reach_nondata_abs_gen ops o :
  is_data_op o = false ->
  abs (fst (step_q K cfg (reach ops) o)) = match o with OOpen _ => readable_log (reach ops) | _ => abs (reach ops) end.
Proof.
  intros Ho. apply step_q_nondata_abs_gen; [exact Ho|apply reach_Inv|apply reach_Inv].
Qed.

Lemma reach_app ops l : reach (ops ++ l) = fst (run K cfg (reach ops) l).
Proof. apply run_app. Qed.

Lemma reach_snoc ops o : reach (ops ++ [o]) = fst (step_q K cfg (reach ops) o).
Proof. rewrite reach_app. apply run_cons. Qed.

(* a run of maintenance / lifecycle operations leaves the log untouched, and makes no file unreadable *)
Lemma reach_nondata_list ops l :
  Forall (fun o => is_data_op o = false) l -> s_bad (reach ops) = [] ->
  abs (reach (ops ++ l)) = abs (reach ops) /\ s_bad (reach (ops ++ l)) = [].
Proof.
  intros Hl HB. induction l as [|o l IH] using rev_ind.
  - rewrite app_nil_r. split; [reflexivity|exact HB].
  - apply Forall_app in Hl. destruct Hl as [Hl Ho]. inversion Ho as [|? ? Ho' _]; subst.
    destruct (IH Hl) as [IHa IHb]. rewrite app_assoc, reach_snoc. split.
    + rewrite reach_nondata_abs by assumption. exact IHa.
    + apply bad_nil_step_q; [intros id ->; discriminate Ho'|exact IHb].
Qed.

(* C04: after a maintenance / lifecycle operation every read answers as before *)
Lemma reach_maint_read ops o k :
  is_data_op o = false -> s_bad (reach ops) = [] ->
  get_latest_entry (reach (ops ++ [o])) k None = get_latest_entry (reach ops) k None.
Proof.
  intros Ho HB. rewrite !reach_read_latest. rewrite reach_snoc, reach_nondata_abs by assumption. reflexivity.
Qed.

(* C03: close + reopen (eager or lazy), with or without removing index files in between *)
Lemma reach_restart_abs ops lazy :
  s_bad (reach ops) = [] -> abs (reach (ops ++ [OClose; OOpen lazy])) = abs (reach ops).
Proof. intros HB. apply reach_nondata_list; [repeat constructor|exact HB]. Qed.

Lemma reach_restart_rmindex_abs ops ids lazy :
  s_bad (reach ops) = [] ->
  abs (reach (ops ++ [OClose] ++ map ORmIndex ids ++ [OOpen lazy])) = abs (reach ops).
Proof.
  intros HB. apply reach_nondata_list; [|exact HB].
  constructor; [reflexivity|]. apply Forall_app. split; [|repeat constructor].
  apply Forall_forall. intros o Ho. apply in_map_iff in Ho. destruct Ho as (i & <- & _). reflexivity.
Qed.

(* for EVERY history (crash damage included): whatever happened before, `open` makes the log the records of the blob
   files that can be read back *)
Lemma reach_open_abs ops lazy : abs (reach (ops ++ [OOpen lazy])) = readable_log (reach ops).
Proof. rewrite reach_snoc. apply (reach_nondata_abs_gen ops (OOpen lazy)). reflexivity. Qed.

(* a running storage can be closed and started again without any change of the log *)
Lemma reach_restart_open_abs ops lazy :
  s_open (reach ops) = true -> abs (reach (ops ++ [OClose; OOpen lazy])) = abs (reach ops).
Proof. intros Ho. apply reach_restart_abs, reach_open_no_bad, Ho. Qed.

Lemma reach_restart_read ops lazy k :
  s_bad (reach ops) = [] ->
  get_latest_entry (reach (ops ++ [OClose; OOpen lazy])) k None = get_latest_entry (reach ops) k None.
Proof. intros HB. rewrite !reach_read_latest. rewrite reach_restart_abs by exact HB. reflexivity. Qed.

End K.

Print Assumptions never_f2.
Print Assumptions never_index_error.
Print Assumptions write_acknowledged.
Print Assumptions reach_Inv.
Print Assumptions reach_read_latest.
Print Assumptions reach_maint_read.
Print Assumptions reach_restart_read.
Print Assumptions reach_nondata_abs_gen.
Print Assumptions reach_open_abs.
Print Assumptions reach_restart_open_abs.
