(* C02: Storage::read_all_with_deletion_marker / read_all / get_latest_entry with metadata agree with the
   specification (Spec.v): all records of the key in rank order (timestamp descending, then log order
   descending), cut after the first deletion marker.
   Both sides are functions of the per-blob lists in rank order: sorting a concatenation of sorted pieces is
   sorting the concatenation of the raw ones, and cutting each piece first does not change the cut of the merge. *)
Require Import Pearl.Base.Prelude Pearl.Storage.Model Pearl.Storage.Spec Pearl.Storage.Inv
               Pearl.Storage.IndexProofs Pearl.Storage.ReadProofs Pearl.Storage.Filtered.

Lemma ins_desc_comm x y l : r_ts x < r_ts y -> ins_desc x (ins_desc y l) = ins_desc y (ins_desc x l).
Proof.
  intros Hxy. induction l as [|z l IH].
  - change (ins_desc y []) with [y]. change (ins_desc x []) with [x].
    rewrite (ins_desc_gt x y), (ins_desc_le y x) by lia. reflexivity.
  - destruct (N.le_gt_cases (r_ts z) (r_ts x)) as [Hzx|Hzx]; [|destruct (N.le_gt_cases (r_ts z) (r_ts y)) as [Hzy|Hzy]].
    + rewrite (ins_desc_le y z), (ins_desc_gt x y), (ins_desc_le x z), (ins_desc_le y x) by lia. reflexivity.
    + rewrite (ins_desc_le y z), (ins_desc_gt x y), (ins_desc_gt x z), (ins_desc_le y z) by lia. reflexivity.
    + rewrite (ins_desc_gt y z), (ins_desc_gt x z), (ins_desc_gt x z), (ins_desc_gt y z), IH by lia. reflexivity.
Qed.

Definition ins_all (T D : list rec) : list rec := fold_right ins_desc T D.

Lemma sort_desc_app a b : sort_desc (a ++ b) = ins_all (sort_desc b) a.
Proof. unfold sort_desc, ins_all. apply fold_right_app. Qed.

Lemma ins_all_ins T x S : ins_all T (ins_desc x S) = ins_desc x (ins_all T S).
Proof.
  induction S as [|y S IH]; [reflexivity|].
  cbn [ins_desc]. destruct (N.leb_spec (r_ts y) (r_ts x)) as [Hle|Hgt]; [reflexivity|].
  unfold ins_all in *. cbn [fold_right]. rewrite IH. symmetry. apply ins_desc_comm. assumption.
Qed.

Lemma ins_all_sort T a : ins_all T (sort_desc a) = ins_all T a.
Proof.
  induction a as [|x a IH]; [reflexivity|].
  change (sort_desc (x :: a)) with (ins_desc x (sort_desc a)). rewrite ins_all_ins, IH. reflexivity.
Qed.

Lemma sort_desc_idem a : sort_desc (sort_desc a) = sort_desc a.
Proof. exact (ins_all_sort [] a). Qed.

Lemma sort_concat_sorted Ls : sort_desc (concat (map sort_desc Ls)) = sort_desc (concat Ls).
Proof.
  induction Ls as [|a Ls IH]; [reflexivity|].
  cbn [map concat]. rewrite !sort_desc_app, IH. apply ins_all_sort.
Qed.

Lemma sort_desc_Forall (P : rec -> Prop) l : Forall P l -> Forall P (sort_desc l).
Proof.
  induction 1 as [|x l Hx Hl IH]; [constructor|].
  change (sort_desc (x :: l)) with (ins_desc x (sort_desc l)). apply ins_desc_Forall; assumption.
Qed.

Lemma ins_all_sdesc T D : sdesc T -> sdesc (ins_all T D).
Proof.
  intros HT. induction D as [|x D IH]; [assumption|].
  unfold ins_all in *. cbn [fold_right]. apply ins_desc_sdesc, IH.
Qed.

Lemma sort_desc_id l : sdesc l -> sort_desc l = l.
Proof.
  induction l as [|x l IH]; [reflexivity|]. intros [Hx Hl].
  change (sort_desc (x :: l)) with (ins_desc x (sort_desc l)). rewrite IH by assumption.
  destruct Hx as [|y l Hy _]; [reflexivity|apply ins_desc_le, Hy].
Qed.

Definition nodel (r : rec) : Prop := r_del r = false.

Lemma cut_idem l : cut_after_del (cut_after_del l) = cut_after_del l.
Proof.
  induction l as [|h l IH]; [reflexivity|]. cbn [cut_after_del].
  destruct (r_del h) eqn:E; cbn [cut_after_del]; rewrite E; [reflexivity|]. rewrite IH. reflexivity.
Qed.

Lemma cut_nodel l : Forall nodel l -> cut_after_del l = l.
Proof.
  induction 1 as [|h l Hh Hl IH]; [reflexivity|]. cbn [cut_after_del]. rewrite Hh, IH. reflexivity.
Qed.

Lemma cut_Forall (P : rec -> Prop) l : Forall P l -> Forall P (cut_after_del l).
Proof.
  induction 1 as [|h l Hh Hl IH]; [constructor|]. cbn [cut_after_del].
  destruct (r_del h); repeat constructor; assumption.
Qed.

Lemma cut_sdesc l : sdesc l -> sdesc (cut_after_del l).
Proof.
  induction l as [|h l IH]; [auto|]. intros [Hh Hl]. cbn [cut_after_del].
  destruct (r_del h); cbn [sdesc]; [split; [constructor|exact I]|].
  split; [apply cut_Forall; assumption|apply IH; assumption].
Qed.

Lemma cut_ins_cut x l : cut_after_del (ins_desc x l) = cut_after_del (ins_desc x (cut_after_del l)).
Proof.
  induction l as [|y l IH]; [reflexivity|].
  cbn [cut_after_del]. destruct (N.le_gt_cases (r_ts y) (r_ts x)) as [Hle|Hgt].
  - rewrite (ins_desc_le x y l Hle). destruct (r_del y) eqn:Ey; rewrite ins_desc_le by assumption.
    + cbn [cut_after_del]. rewrite Ey. reflexivity.
    + cbn [cut_after_del]. rewrite Ey, cut_idem. reflexivity.
  - rewrite (ins_desc_gt x y l Hgt). destruct (r_del y) eqn:Ey; rewrite ins_desc_gt by assumption.
    + cbn [cut_after_del]. rewrite Ey. reflexivity.
    + cbn [cut_after_del]. rewrite Ey, IH. reflexivity.
Qed.

Lemma cut_ins_congr x l l' :
  cut_after_del l = cut_after_del l' -> cut_after_del (ins_desc x l) = cut_after_del (ins_desc x l').
Proof. intros H. rewrite (cut_ins_cut x l), (cut_ins_cut x l'), H. reflexivity. Qed.

Lemma cut_ins_all_congr D T T' :
  cut_after_del T = cut_after_del T' -> cut_after_del (ins_all T D) = cut_after_del (ins_all T' D).
Proof.
  intros H. induction D as [|x D IH]; [assumption|].
  unfold ins_all in *. cbn [fold_right]. apply cut_ins_congr, IH.
Qed.

(* d lands in front of x, and the cut stops at d *)
Lemma cut_ins_marker d x l : r_del d = true -> r_ts x <= r_ts d ->
  cut_after_del (ins_desc d (ins_desc x l)) = cut_after_del (ins_desc d l).
Proof.
  intros Hd Hx.
  assert (Hcut : forall t, cut_after_del (d :: t) = [d]) by (intros t; cbn [cut_after_del]; rewrite Hd; reflexivity).
  induction l as [|y l IH].
  - change (ins_desc x []) with [x]. change (ins_desc d []) with [d]. rewrite (ins_desc_le d x), !Hcut by lia. reflexivity.
  - destruct (N.le_gt_cases (r_ts y) (r_ts d)) as [Hyd|Hyd].
    + rewrite (ins_desc_le d y), Hcut by lia. destruct (N.le_gt_cases (r_ts y) (r_ts x)) as [Hyx|Hyx].
      * rewrite (ins_desc_le x y), (ins_desc_le d x), Hcut by lia. reflexivity.
      * rewrite (ins_desc_gt x y), (ins_desc_le d y), Hcut by lia. reflexivity.
    + rewrite (ins_desc_gt x y), !(ins_desc_gt d y) by lia. cbn [cut_after_del]. rewrite IH. reflexivity.
Qed.

Lemma cut_ins_marker_all d T P : r_del d = true -> Forall (fun x => r_ts x <= r_ts d) P ->
  cut_after_del (ins_desc d (ins_all T P)) = cut_after_del (ins_desc d T).
Proof.
  intros Hd HP. induction HP as [|x P Hx HP IH]; [reflexivity|].
  unfold ins_all in *. cbn [fold_right]. rewrite cut_ins_marker by assumption. exact IH.
Qed.

(* what the cut drops from P is not newer than the marker y that ends it, so it lands behind y *)
Lemma cut_ins_all_cut T P : sdesc P ->
  cut_after_del (ins_all T (cut_after_del P)) = cut_after_del (ins_all T P).
Proof.
  induction P as [|y P IH]; [reflexivity|]. intros [Hy HP]. cbn [cut_after_del].
  destruct (r_del y) eqn:Ey; unfold ins_all in *; cbn [fold_right].
  - symmetry. apply cut_ins_marker_all; assumption.
  - apply cut_ins_congr, IH. assumption.
Qed.

Lemma cut_sort_concat_cut Ps : Forall sdesc Ps ->
  cut_after_del (sort_desc (concat (map cut_after_del Ps))) = cut_after_del (sort_desc (concat Ps)).
Proof.
  induction 1 as [|P Ps HP HPs IH]; [reflexivity|].
  cbn [map concat]. rewrite !sort_desc_app.
  rewrite (cut_ins_all_congr (cut_after_del P) _ _ IH). apply cut_ins_all_cut. assumption.
Qed.

Section Key.
Variable k : N.

(* the records of the key in one blob: last appended first, and in rank order *)
Definition rkey (b : blob) : list rec := rev (of_key k (b_recs b)).
Definition dkey (b : blob) : list rec := sort_desc (rkey b).

Lemma idx_get_all_dm_ok b : idx_ok b -> idx_get_all_dm (b_idx b) k = cut_after_del (dkey b).
Proof.
  intros H. unfold idx_get_all_dm, dkey, rkey. rewrite H, imap_get_index_of.
  destruct (of_key k (b_recs b)) as [|x l]; [reflexivity|]. rewrite rev_vec_of. reflexivity.
Qed.

Lemma rev_of_key_blobs bs :
  rev (of_key k (flat_map b_recs bs)) = concat (map rkey (rev bs)).
Proof.
  induction bs as [|b bs IH]; [reflexivity|].
  cbn [flat_map rev]. rewrite of_key_app, rev_app_distr, IH, map_app, concat_app.
  cbn [map concat]. rewrite app_nil_r. reflexivity.
Qed.

Lemma spec_all_dm_blobs s :
  spec_all_dm (abs s) k = cut_after_del (sort_desc (concat (map rkey (newest_first s)))).
Proof. unfold spec_all_dm, abs. rewrite rev_of_key_blobs, <- newest_first_rev. reflexivity. Qed.

Lemma read_all_dm_newest_first s :
  read_all_dm s k = ra_merge (map (fun b => idx_get_all_dm (b_idx b) k) (newest_first s)).
Proof. rewrite read_all_dm_merge. unfold newest_first. destruct (s_active s); reflexivity. Qed.

Lemma last_del_ts_cons h l :
  last_del_ts (h :: l) = match l with [] => if r_del h then Some (r_ts h) else None | _ => last_del_ts l end.
Proof.
  destruct l as [|y l]; [reflexivity|]. unfold last_del_ts. cbn [rev].
  destruct (rev l ++ [y]) as [|z t] eqn:E; [destruct (rev l); discriminate|]. reflexivity.
Qed.

Lemma cut_no_marker l : last_del_ts (cut_after_del l) = None -> Forall nodel (cut_after_del l).
Proof.
  induction l as [|h l IH]; [constructor|]. cbn [cut_after_del].
  destruct (r_del h) eqn:Eh.
  - unfold last_del_ts. cbn [rev app]. rewrite Eh. discriminate.
  - rewrite last_del_ts_cons. intros H. constructor; [exact Eh|].
    destruct (cut_after_del l) as [|y t]; [constructor|]. apply IH, H.
Qed.

Definition piece_ok (C : list rec) : Prop := sdesc C /\ cut_after_del C = C.

Lemma concat_nonempty Cs : concat (filter ra_nonempty Cs) = concat Cs.
Proof.
  induction Cs as [|[|x C] Cs IH]; [reflexivity|exact IH|].
  cbn [filter ra_nonempty concat]. rewrite IH. reflexivity.
Qed.

Lemma ra_merge_ok Cs : Forall piece_ok Cs -> ra_merge Cs = cut_after_del (sort_desc (concat Cs)).
Proof.
  intros H. unfold ra_merge. fold ra_nonempty. cbv zeta.
  destruct (Nat.ltb_spec 1 (length (filter ra_nonempty Cs))) as [Hn|Hn].
  - destruct (existsb _ Cs) eqn:Em; [reflexivity|]. symmetry. apply cut_nodel, sort_desc_Forall.
    apply Forall_concat. rewrite Forall_forall in *. intros C HC.
    destruct (H C HC) as [_ Hcut]. rewrite <- Hcut. apply cut_no_marker. rewrite Hcut.
    destruct (last_del_ts C) eqn:El; [|reflexivity].
    rewrite (proj2 (existsb_exists _ Cs)) in Em; [discriminate Em|]. exists C. rewrite El. split; [assumption|reflexivity].
  - rewrite <- concat_nonempty.
    destruct (filter ra_nonempty Cs) as [|C [|C' F]] eqn:EF; [reflexivity| |cbn [length] in Hn; lia].
    assert (HC : In C (filter ra_nonempty Cs)) by (rewrite EF; left; reflexivity).
    apply filter_In, proj1 in HC. apply (proj1 (Forall_forall _ _) H) in HC. destruct HC as [Hs Hc].
    cbn [concat]. rewrite app_nil_r, sort_desc_id by assumption. symmetry. exact Hc.
Qed.

End Key.

Theorem read_all_dm_spec : forall s k, IdxInv s -> read_all_dm s k = spec_all_dm (abs s) k.
Proof.
  intros s k H. apply IdxInv_newest_first in H.
  rewrite read_all_dm_newest_first, spec_all_dm_blobs.
  rewrite <- (sort_concat_sorted (map (rkey k) (newest_first s))), map_map.
  rewrite (map_ext_Forall _ _ (Forall_impl _ (idx_get_all_dm_ok k) H)).
  rewrite <- (map_map (dkey k) cut_after_del).
  rewrite ra_merge_ok.
  - apply cut_sort_concat_cut. apply Forall_map, Forall_forall. intros b _. apply sort_desc_sdesc.
  - apply Forall_map, Forall_map, Forall_forall. intros b _. split; [apply cut_sdesc, sort_desc_sdesc|apply cut_idem].
Qed.

Corollary read_all_spec : forall s k, IdxInv s -> read_all s k = spec_all (abs s) k.
Proof. intros s k H. unfold read_all, spec_all. rewrite read_all_dm_spec by assumption. reflexivity. Qed.

(* ReadResult::latest is "leftmost maximum": associative, NotFound neutral *)
Lemma rr_latest_NotFound_l (x : rr rec) : rr_latest r_ts NotFound x = x.
Proof. unfold rr_latest. destruct x; reflexivity. Qed.

Lemma rr_latest_NotFound_r (x : rr rec) : rr_latest r_ts x NotFound = x.
Proof. unfold rr_latest. destruct x; reflexivity. Qed.

Lemma opt_gt_trans a b c v : opt_gt c b = v -> opt_gt b a = v -> opt_gt c a = v.
Proof.
  destruct a as [a|], b as [b|], c as [c|]; cbn [opt_gt]; try congruence.
  destruct v; rewrite ?N.ltb_lt, ?N.ltb_ge; lia.
Qed.

Lemma rr_latest_assoc (a b c : rr rec) :
  rr_latest r_ts a (rr_latest r_ts b c) = rr_latest r_ts (rr_latest r_ts a b) c.
Proof.
  unfold rr_latest.
  destruct (opt_gt (rr_ts r_ts c) (rr_ts r_ts b)) eqn:Ecb;
    destruct (opt_gt (rr_ts r_ts b) (rr_ts r_ts a)) eqn:Eba; rewrite ?Ecb, ?Eba; try reflexivity.
  - rewrite (opt_gt_trans _ _ _ _ Ecb Eba). reflexivity.
  - rewrite (opt_gt_trans _ _ _ _ Ecb Eba). reflexivity.
Qed.

Lemma fold_latest_assoc rs : forall a,
  fold_left (rr_latest r_ts) rs a = rr_latest r_ts a (fold_left (rr_latest r_ts) rs (@NotFound rec)).
Proof.
  induction rs as [|x rs IH]; intros a; cbn [fold_left]; [symmetry; apply rr_latest_NotFound_r|].
  rewrite IH, (IH (rr_latest r_ts NotFound x)), rr_latest_NotFound_l. symmetry. apply rr_latest_assoc.
Qed.

Section Meta.
Variable m : N.

(* the answer, read off a rank-ordered list: the first record that is a marker or carries meta m *)
Fixpoint scan (l : list rec) : rr rec :=
  match l with
  | [] => NotFound
  | h :: r => if r_del h then Deleted (r_ts h) else if r_meta h =? m then Found h else scan r
  end.

(* Blob::get_entry_with_meta / spec_read_with, as a function of the list with deletion marker *)
Definition res (hs : list rec) : rr rec :=
  match find (fun h => r_meta h =? m) (strip_last_del hs) with
  | Some h => Found h
  | None => match last_del_ts hs with Some t => Deleted t | None => NotFound end
  end.

Lemma strip_last_del_cons h l : l <> [] -> strip_last_del (h :: l) = h :: strip_last_del l.
Proof.
  intros Hl. unfold strip_last_del. cbn [rev].
  destruct (rev l) as [|y t] eqn:E.
  - exfalso. apply Hl. rewrite <- (rev_involutive l), E. reflexivity.
  - cbn [app]. destruct (r_del y); [|reflexivity]. rewrite rev_unit. reflexivity.
Qed.

Lemma res_cons h l : r_del h = false -> res (h :: l) = if r_meta h =? m then Found h else res l.
Proof.
  intros Hh. destruct l as [|y l].
  - unfold res, strip_last_del, last_del_ts. cbn [rev app]. rewrite Hh. cbn [find].
    destruct (r_meta h =? m); reflexivity.
  - unfold res. rewrite strip_last_del_cons by discriminate. rewrite (last_del_ts_cons h (y :: l)).
    cbn [find]. destruct (r_meta h =? m); reflexivity.
Qed.

Lemma res_cut l : res (cut_after_del l) = scan l.
Proof.
  induction l as [|h l IH]; [reflexivity|]. cbn [cut_after_del scan].
  destruct (r_del h) eqn:Eh.
  - unfold res, strip_last_del, last_del_ts. cbn [rev app]. rewrite Eh. reflexivity.
  - rewrite res_cons by assumption. rewrite IH. reflexivity.
Qed.

Definition hit (h : rec) : bool := r_del h || (r_meta h =? m).

Lemma scan_find l : scan l = to_rr (find hit l).
Proof.
  induction l as [|h l IH]; [reflexivity|]. cbn [scan find]. rewrite IH. unfold hit.
  destruct (r_del h) eqn:E; cbn [orb].
  - cbn [to_rr]. rewrite E. reflexivity.
  - destruct (r_meta h =? m); [|reflexivity]. cbn [to_rr]. rewrite E. reflexivity.
Qed.

(* in a sorted list the first hit is the top-ranked one, so insertion acts on it like `newer` *)
Lemma find_ins x U : sdesc U -> find hit (ins_desc x U) = newer (find hit U) (find hit [x]).
Proof.
  induction U as [|y U IH]; [intros _; cbn [ins_desc]; destruct (find hit [x]); reflexivity|].
  intros [Hy HU]. cbn [ins_desc]. destruct (N.leb_spec (r_ts y) (r_ts x)) as [Hle|Hgt].
  - change (find hit [x]) with (if hit x then Some x else None).
    change (find hit (x :: y :: U)) with (if hit x then Some x else find hit (y :: U)).
    destruct (hit x); [|reflexivity].
    destruct (find hit (y :: U)) as [f|] eqn:Ef; [|reflexivity]. cbn [newer].
    apply find_some in Ef. destruct Ef as [Hin _].
    assert (Hf : r_ts f <= r_ts x).
    { destruct Hin as [<-|Hin]; [assumption|]. rewrite Forall_forall in Hy. specialize (Hy f Hin). lia. }
    destruct (N.leb_spec (r_ts f) (r_ts x)); [reflexivity|lia].
  - cbn [find]. destruct (hit y); [|exact (IH HU)].
    destruct (hit x); cbn [newer]; [|reflexivity].
    destruct (N.leb_spec (r_ts y) (r_ts x)); [lia|reflexivity].
Qed.

Lemma scan_ins x U : sdesc U -> scan (ins_desc x U) = rr_latest r_ts (scan [x]) (scan U).
Proof. intros H. rewrite !scan_find, rr_latest_to_rr, find_ins by assumption. reflexivity. Qed.

Lemma scan_ins_all T D : sdesc T -> scan (ins_all T D) = rr_latest r_ts (scan (sort_desc D)) (scan T).
Proof.
  intros HT. induction D as [|x D IH]; [symmetry; apply rr_latest_NotFound_l|].
  change (ins_all T (x :: D)) with (ins_desc x (ins_all T D)).
  change (sort_desc (x :: D)) with (ins_desc x (sort_desc D)).
  rewrite (scan_ins x _ (ins_all_sdesc T D HT)), (scan_ins x _ (sort_desc_sdesc D)), IH.
  apply rr_latest_assoc.
Qed.

Lemma scan_sort_concat Ds :
  fold_left (rr_latest r_ts) (map (fun D => scan (sort_desc D)) Ds) NotFound = scan (sort_desc (concat Ds)).
Proof.
  induction Ds as [|D Ds IH]; [reflexivity|].
  cbn [map fold_left concat]. rewrite fold_latest_assoc, rr_latest_NotFound_l, IH, sort_desc_app.
  symmetry. apply scan_ins_all, sort_desc_sdesc.
Qed.

Lemma fold_left_map_rr {A} (g : A -> rr rec) l : forall a,
  fold_left (fun acc b => rr_latest r_ts acc (g b)) l a = fold_left (rr_latest r_ts) (map g l) a.
Proof. induction l as [|x l IH]; intros a; [reflexivity|]. cbn [map fold_left]. apply IH. Qed.

Variable k : N.

Lemma blob_get_with_meta_ok b : idx_ok b -> blob_get_latest (b_idx b) k (Some m) = scan (dkey k b).
Proof.
  intros H. cbn [blob_get_latest]. unfold blob_get_with_meta. cbv zeta. fold (res (idx_get_all_dm (b_idx b) k)).
  rewrite idx_get_all_dm_ok by assumption. apply res_cut.
Qed.

Lemma spec_read_with_scan s :
  spec_read_with (abs s) k m = scan (sort_desc (concat (map (rkey k) (newest_first s)))).
Proof.
  unfold spec_read_with. cbv zeta. fold (res (spec_all_dm (abs s) k)).
  rewrite spec_all_dm_blobs. apply res_cut.
Qed.

End Meta.

Theorem read_with_spec : forall s k m, IdxInv s -> get_latest_entry s k (Some m) = spec_read_with (abs s) k m.
Proof.
  intros s k m H. apply IdxInv_newest_first in H.
  rewrite get_latest_entry_newest_first, spec_read_with_scan, fold_left_map_rr.
  rewrite (map_ext_Forall _ _ (Forall_impl _ (blob_get_with_meta_ok m k) H)).
  rewrite <- (map_map (rkey k) (fun D => scan m (sort_desc D))). apply scan_sort_concat.
Qed.

Print Assumptions read_all_dm_spec.
Print Assumptions read_all_spec.
Print Assumptions read_with_spec.
