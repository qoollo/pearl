(* C15 (accounting): the counters reported by the model are those of the specification.

   The code counts the headers held by the indexes, the specification the records of the blobs. The two meet in
   imap_count_index_of: an index built from a blob's records holds one header per record, because the keys of an imap
   stay strictly increasing (keys_sorted), so that a push finds the entry of its key or adds one, never a second.
   Hence `counts s = spec_counts s` in every state whose indexes describe their blobs (of BlobsOk only the idx_ok half
   is used), and after every history. blobs_count is the number of occupied slots and the active entry carries the
   blob's own id (commits b2a4900 / 7f20c40 of the code; finding F3), so a vacated slot of the closed list
   (HierarchicalFilters::children) is not counted. *)
Require Import Pearl.Base.Prelude Pearl.Storage.Model Pearl.Storage.Spec Pearl.Storage.Inv
               Pearl.Storage.InvProofs Pearl.Storage.Theorems.

Lemma fold_count_acc (m : imap) : forall a,
  fold_left (fun a kv => a + N.of_nat (length (snd kv))) m a =
  a + fold_left (fun a kv => a + N.of_nat (length (snd kv))) m 0.
Proof.
  induction m as [|kv m IH]; intros a; cbn [fold_left]; [lia|].
  rewrite IH, (IH (0 + _)). lia.
Qed.

Lemma imap_count_cons k v m : imap_count ((k, v) :: m) = N.of_nat (length v) + imap_count m.
Proof.
  unfold imap_count. cbn [fold_left snd]. rewrite fold_count_acc. lia.
Qed.

Fixpoint keys_sorted (m : imap) : Prop :=
  match m with
  | [] => True
  | (k, _) :: r => (forall k', In k' (map fst r) -> k < k') /\ keys_sorted r
  end.

Lemma imap_get_notin m k : ~ In k (map fst m) -> imap_get m k = None.
Proof.
  induction m as [|[k0 v0] m IH]; intros H; cbn [imap_get]; [reflexivity|].
  cbn [map fst In] in H. destruct (N.eqb_spec k0 k) as [->|Hne].
  - exfalso. apply H. left. reflexivity.
  - apply IH. intros Hin. apply H. right. exact Hin.
Qed.

Lemma imap_put_keys m k v k' : In k' (map fst (imap_put m k v)) -> k' = k \/ In k' (map fst m).
Proof.
  induction m as [|[k0 v0] m IH]; cbn [imap_put].
  - cbn [map fst In]. intros [H|[]]. left. congruence.
  - destruct (k =? k0); [|destruct (k <? k0)]; cbn [map fst In].
    + intros [H|H]; [left; congruence|right; right; exact H].
    + intros [H|H]; [left; congruence|right; exact H].
    + intros [H|H]; [right; left; exact H|].
      destruct (IH H) as [Hk|Hk]; [left; exact Hk|right; right; exact Hk].
Qed.

Lemma imap_put_sorted m k v : keys_sorted m -> keys_sorted (imap_put m k v).
Proof.
  induction m as [|[k0 v0] m IH]; cbn [imap_put keys_sorted].
  - intros _. split; [intros k' []|exact I].
  - intros [Hlt Hs]. destruct (N.eqb_spec k k0) as [->|Hne].
    + cbn [keys_sorted]. split; assumption.
    + destruct (N.ltb_spec k k0) as [Hk|Hk].
      * cbn [keys_sorted]. split; [|split; assumption].
        cbn [map fst In]. intros k' [<-|Hin]; [assumption|]. specialize (Hlt _ Hin). lia.
      * cbn [keys_sorted]. split; [|apply IH; assumption].
        intros k' Hin. apply imap_put_keys in Hin. destruct Hin as [->|Hin]; [lia|apply Hlt, Hin].
Qed.

Lemma imap_push_sorted m h : keys_sorted m -> keys_sorted (imap_push m h).
Proof.
  intros H. unfold imap_push. destruct (imap_get m (r_key h)); apply imap_put_sorted; exact H.
Qed.

Lemma index_of_sorted rs : keys_sorted (index_of rs).
Proof. exact (fold_left_inv imap_push keys_sorted imap_push_sorted rs [] I). Qed.

Lemma vec_insert_length v h : length (vec_insert v h) = S (length v).
Proof.
  induction v as [|x r IH]; cbn [vec_insert]; [reflexivity|].
  destruct (r_ts x <=? r_ts h); cbn [length]; [rewrite IH|]; reflexivity.
Qed.

(* along the sorted map: the key of h is found at the head; or it is below the head, hence nowhere; or further down *)
Lemma imap_count_push m h : keys_sorted m -> imap_count (imap_push m h) = imap_count m + 1.
Proof.
  unfold imap_push. induction m as [|[k0 v0] m IH]; cbn [imap_get imap_put keys_sorted].
  - intros _. reflexivity.
  - intros [Hlt Hs]. specialize (IH Hs). rewrite (N.eqb_sym k0).
    destruct (N.eqb_spec (r_key h) k0) as [E|Hne].
    + rewrite !imap_count_cons, vec_insert_length, Nat2N.inj_succ. lia.
    + destruct (N.ltb_spec (r_key h) k0) as [Hk|Hk].
      * rewrite imap_get_notin by (intros Hin; specialize (Hlt _ Hin); lia).
        rewrite !imap_count_cons. cbn [length]. lia.
      * destruct (imap_get m (r_key h)) as [v|]; rewrite !imap_count_cons, IH; lia.
Qed.

Lemma index_of_snoc rs r : index_of (rs ++ [r]) = imap_push (index_of rs) r.
Proof. apply InvProofs.index_of_snoc. Qed.

Lemma imap_count_index_of : forall rs, imap_count (index_of rs) = N.of_nat (length rs).
Proof.
  induction rs as [|r rs IH] using rev_ind; [reflexivity|].
  rewrite index_of_snoc, imap_count_push by apply index_of_sorted.
  rewrite IH, app_length. cbn [length]. lia.
Qed.

Lemma sum_det (l : list blob) : forall a,
  fold_left (fun a (p : N * N) => a + snd p) (map (fun b => (b_id b, N.of_nat (length (b_recs b)))) l) a =
  a + N.of_nat (length (flat_map b_recs l)).
Proof.
  induction l as [|b l IH]; intros a; cbn [map fold_left flat_map snd].
  - cbn [length]. change (N.of_nat 0) with 0. lia.
  - rewrite IH, app_length, Nat2N.inj_add. lia.
Qed.

Theorem counts_spec : forall K s, BlobsOk K s -> counts s = spec_counts s.
Proof.
  intros K s HB.
  assert (Hdc : map (fun b => (b_id b, imap_count (b_idx b))) (closed_blobs s) =
                map (fun b => (b_id b, N.of_nat (length (b_recs b)))) (closed_blobs s)).
  { apply map_ext_in. intros b Hb. destruct (BlobsOk_closed_blobs K s b HB Hb) as [Hi _].
    unfold idx_ok in Hi. rewrite Hi, imap_count_index_of. reflexivity. }
  unfold counts, spec_counts, active_count, abs, blobs_in_order. rewrite Hdc.
  destruct (s_active s) as [b|] eqn:Ea.
  - destruct (proj2 HB b Ea) as [Hi _]. unfold idx_ok in Hi.
    rewrite Hi, imap_count_index_of.
    change ([(b_id b, N.of_nat (length (b_recs b)))]) with
      (map (fun b => (b_id b, N.of_nat (length (b_recs b)))) [b]).
    rewrite <- map_app, sum_det, app_length. cbn [length].
    f_equal; lia.
  - rewrite !app_nil_r, sum_det. f_equal; lia.
Qed.

Corollary counts_answer : forall K cfg s,
  s_open s = true -> BlobsOk K s -> Some (snd (step K cfg s OCounts)) = spec_answer s OCounts.
Proof.
  intros K cfg s Ho Hb. rewrite (step_open K cfg s OCounts Ho). cbn [snd spec_answer].
  f_equal. apply (counts_spec K); assumption.
Qed.

Theorem reach_counts : forall K cfg ops, counts (reach K cfg ops) = spec_counts (reach K cfg ops).
Proof. intros K cfg ops. apply (counts_spec K). apply (reach_Inv K cfg ops). Qed.

(* after open / write / close_active / restore_active the closed list is [None] and the restored blob 0 is active:
   1 blob and the pair (0, 1) for the active blob (counting slots would give 2 blobs and the pair (1, 1)).
   By computation; also an instance of reach_counts. *)
Example blobs_count_after_restore :
  let cfg := {| c_dup := true; c_maxrec := 1000; c_maxsize := 1000000 |} in
  let s := fst (run 4 cfg init_storage [OOpen false; OWrite 1 7 None 8 5 1; OCloseActive; ORestoreActive]) in
  s_closed s = [None] /\
  counts s = spec_counts s /\
  counts s = RCounts 1 [(0, 1)] (Some 1) 1 1 0 true.
Proof. vm_compute. repeat split; reflexivity. Qed.

Print Assumptions imap_count_index_of.
Print Assumptions counts_spec.
Print Assumptions counts_answer.
Print Assumptions reach_counts.
Print Assumptions blobs_count_after_restore.
