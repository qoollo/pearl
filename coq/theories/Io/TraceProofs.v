(* L4 proofs: the meaning of the trace predicates of Trace.v (what an accepted trace guarantees); the blob/index
   protocol of the model satisfies them for every number of records; so does the trace the model predicts for every
   history without crash damage. Traces are reasoned about by triples `ok P tr Q` over the file state; the trace of a
   step is one chunk of events per blob, and chunks of different blobs touch different files. The literal 20 is the
   length of the blob header (BLOB_HEADER_SIZE), written as in Trace.v. *)
Require Import Pearl.Base.Prelude Pearl.Storage.Model Pearl.Storage.Spec Pearl.Io.Trace.
Require Import Pearl.Storage.Inv Pearl.Storage.StepProofs Pearl.Storage.InvProofs Pearl.Storage.NoHarmProofs
               Pearl.Storage.CrashProofs.

Fixpoint run_trace (K : N) (cfg : config) (s : storage) (ops : list op) : list ev :=
  match ops with
  | [] => []
  | o :: r => let s' := fst (step_q K cfg s o) in step_evs K cfg s s' o ++ run_trace K cfg s' r
  end.

Lemma run_evs_app st a b : run_evs st (a ++ b) = run_evs (run_evs st a) b.
Proof. unfold run_evs. apply fold_left_app. Qed.

Lemma run_evs_cons st e r : run_evs st (e :: r) = run_evs (apply_ev st e) r.
Proof. reflexivity. Qed.

Lemma judge_from_app p a : forall st b,
  judge_from p st (a ++ b) = judge_from p st a && judge_from p (run_evs st a) b.
Proof.
  induction a as [|e a IH]; intros st b; cbn [app judge_from]; [reflexivity|].
  rewrite IH, run_evs_cons, andb_assoc. reflexivity.
Qed.

Lemma judge_from_at p a e b st :
  judge_from p st (a ++ e :: b) = true -> p (run_evs st a) e = true.
Proof.
  rewrite judge_from_app. cbn [judge_from]. intros H.
  apply andb_true_iff in H as [_ H]. apply andb_true_iff in H as [H _]. exact H.
Qed.

Theorem harmless_meaning : forall st tr1 tr2 i off len,
  judge_from ev_harmless st (tr1 ++ EvAppend (FBlob, i) off len :: tr2) = true ->
  match fget (run_evs st tr1) (FBlob, i) with Some (sz, _) => off = sz | None => True end.
Proof.
  intros st tr1 tr2 i off len H. apply judge_from_at in H. cbn [ev_harmless] in H.
  destruct (fget (run_evs st tr1) (FBlob, i)) as [[sz sy]|]; [|exact I].
  apply N.eqb_eq; exact H.
Qed.

Theorem harmless_no_positional : forall st tr1 tr2 i off len,
  judge_from ev_harmless st (tr1 ++ EvWriteAt (FBlob, i) off len :: tr2) = false.
Proof.
  intros st tr1 tr2 i off len. apply not_true_is_false. intros H.
  apply judge_from_at in H. cbn in H. discriminate.
Qed.

Theorem harmless_no_recreate : forall st tr1 tr2 i,
  judge_from ev_harmless st (tr1 ++ EvCreate (FBlob, i) :: tr2) = true -> fget (run_evs st tr1) (FBlob, i) = None.
Proof.
  intros st tr1 tr2 i H. apply judge_from_at in H. cbn [ev_harmless] in H.
  destruct (fget (run_evs st tr1) (FBlob, i)); [discriminate|reflexivity].
Qed.

Theorem header_synced_meaning : forall st tr1 tr2 i off len,
  judge_from ev_header_synced st (tr1 ++ EvAppend (FBlob, i) off len :: tr2) = true -> off <> 0 ->
  match fget (run_evs st tr1) (FBlob, i) with Some (_, sy) => 20 <= sy | None => True end.
Proof.
  intros st tr1 tr2 i off len H Hoff. apply judge_from_at in H. cbn [ev_header_synced] in H.
  destruct (off =? 0) eqn:E; [apply N.eqb_eq in E; contradiction|].
  destruct (fget (run_evs st tr1) (FBlob, i)) as [[sz sy]|]; [|exact I].
  apply N.leb_le; exact H.
Qed.

Theorem index_after_sync_meaning : forall st tr1 tr2 i len,
  judge_from ev_index_after_sync st (tr1 ++ EvWriteAt (FIndex, i) 0 len :: tr2) = true ->
  match fget (run_evs st tr1) (FBlob, i) with Some (sz, sy) => sz = sy | None => True end.
Proof.
  intros st tr1 tr2 i len H. apply judge_from_at in H. cbn [ev_index_after_sync] in H.
  destruct (fget (run_evs st tr1) (FBlob, i)) as [[sz sy]|]; [|exact I].
  apply N.eqb_eq; exact H.
Qed.

Lemma fid_eqb_refl f : fid_eqb f f = true.
Proof. destruct f as [[|] n]; unfold fid_eqb; cbn [fst snd andb]; apply N.eqb_refl. Qed.

Lemma fid_eqb_eq f g : fid_eqb f g = true <-> f = g.
Proof.
  split; [|intros <-; apply fid_eqb_refl].
  destruct f as [kf n], g as [kg m]. unfold fid_eqb. cbn [fst snd]. intros H.
  apply andb_true_iff in H as [Hk Hn]. apply N.eqb_eq in Hn. subst m.
  destruct kf, kg; try discriminate Hk; reflexivity.
Qed.

Lemma fid_eqb_sym f g : fid_eqb f g = fid_eqb g f.
Proof. unfold fid_eqb. rewrite (N.eqb_sym (snd f)). destruct (fst f), (fst g); reflexivity. Qed.

Lemma fget_fset st f g v : fget (fset st f v) g = if fid_eqb f g then Some v else fget st g.
Proof.
  induction st as [|[h w] r IH]; cbn [fset fget]; [reflexivity|].
  destruct (fid_eqb h f) eqn:E; cbn [fget].
  - apply fid_eqb_eq in E. subst h. destruct (fid_eqb f g); reflexivity.
  - rewrite IH. destruct (fid_eqb h g) eqn:E'; [|reflexivity].
    apply fid_eqb_eq in E'. subst h. rewrite fid_eqb_sym, E. reflexivity.
Qed.

Lemma fget_fset_same st f v : fget (fset st f v) f = Some v.
Proof. rewrite fget_fset, fid_eqb_refl. reflexivity. Qed.

Lemma blob_index_neq i j : fid_eqb (FBlob, i) (FIndex, j) = false.
Proof. reflexivity. Qed.
Lemma index_blob_neq i j : fid_eqb (FIndex, i) (FBlob, j) = false.
Proof. reflexivity. Qed.

(* an event on file f leaves every other file alone *)
Definition ev_file (e : ev) : fid :=
  match e with EvCreate f | EvOpen f | EvAppend f _ _ | EvWriteAt f _ _ | EvSync f => f end.

Lemma apply_ev_other st e g : fid_eqb (ev_file e) g = false -> fget (apply_ev st e) g = fget st g.
Proof.
  intros H. destruct e as [f|f|f off len|f off len|f]; cbn [apply_ev ev_file] in *; auto.
  - rewrite fget_fset, H. reflexivity.
  - destruct (fget st f) as [[sz sy]|]; rewrite fget_fset, H; reflexivity.
  - destruct (fget st f) as [[sz sy]|]; [rewrite fget_fset, H|]; reflexivity.
Qed.

Lemma run_evs_other tr g :
  Forall (fun e => fid_eqb (ev_file e) g = false) tr -> forall st, fget (run_evs st tr) g = fget st g.
Proof.
  induction 1 as [|e r He _ IH]; intros st; [reflexivity|].
  rewrite run_evs_cons, IH. apply apply_ev_other, He.
Qed.

Definition ev_all (st : fstate) (e : ev) : bool :=
  ev_harmless st e && ev_header_synced st e && ev_index_after_sync st e.

Lemma judge_from_all st tr :
  judge_from ev_all st tr =
  judge_from ev_harmless st tr && judge_from ev_header_synced st tr && judge_from ev_index_after_sync st tr.
Proof.
  revert st; induction tr as [|e r IH]; intros st; cbn [judge_from]; [reflexivity|].
  rewrite IH. unfold ev_all.
  destruct (ev_harmless st e), (ev_header_synced st e), (ev_index_after_sync st e),
    (judge_from ev_harmless (apply_ev st e) r), (judge_from ev_header_synced (apply_ev st e) r); reflexivity.
Qed.

Definition ok (P : fstate -> Prop) (tr : list ev) (Q : fstate -> Prop) : Prop :=
  forall st, P st -> judge_from ev_all st tr = true /\ Q (run_evs st tr).

Lemma ok_nil (P : fstate -> Prop) : ok P [] P.
Proof. intros st H. split; [reflexivity|exact H]. Qed.

Lemma ok_app P Q R a b : ok P a Q -> ok Q b R -> ok P (a ++ b) R.
Proof.
  intros Ha Hb st H. destruct (Ha st H) as [J1 F1]. destruct (Hb _ F1) as [J2 F2].
  rewrite judge_from_app, run_evs_app, J1, J2. split; [reflexivity|exact F2].
Qed.

Lemma ok_cons (P Q R : fstate -> Prop) e tr :
  (forall st, P st -> ev_all st e = true /\ Q (apply_ev st e)) -> ok Q tr R -> ok P (e :: tr) R.
Proof.
  intros He Ht st H. destruct (He st H) as [J1 F1]. destruct (Ht _ F1) as [J2 F2].
  cbn [judge_from]. rewrite run_evs_cons, J1, J2. split; [reflexivity|exact F2].
Qed.

Lemma ok_post (P Q Q' : fstate -> Prop) tr : ok P tr Q -> (forall st, Q st -> Q' st) -> ok P tr Q'.
Proof. intros H HQ st Hst. destruct (H st Hst) as [J F]. split; [exact J|apply HQ, F]. Qed.

Definition file (id sz sy : N) (st : fstate) : Prop := fget st (FBlob, id) = Some (sz, sy).
Definition nofile (id : N) (st : fstate) : Prop := fget st (FBlob, id) = None.

Section K.
Variable K : N.

(* along the appends the offsets follow the file size (the fold is the one of blob_size, started at the offset),
   the synced length is untouched *)
Lemma appends_ok id rs : forall sz sy, 20 <= sy ->
  ok (file id sz sy) (appends_from K id sz rs) (file id (fold_left (fun a r => a + rec_size K r) rs sz) sy).
Proof.
  induction rs as [|r t IH]; intros sz sy Hsy; cbn [appends_from fold_left]; [apply ok_nil|].
  apply (ok_cons _ (file id (sz + rec_size K r) sy)); [|apply IH, Hsy].
  unfold file. intros st Hg. split.
  - unfold ev_all. cbn [ev_harmless ev_header_synced ev_index_after_sync]. rewrite Hg, N.eqb_refl.
    rewrite (proj2 (N.leb_le 20 sy) Hsy). destruct (sz =? 0); reflexivity.
  - cbn [apply_ev]. rewrite Hg, fget_fset_same. f_equal. f_equal. lia.
Qed.

Lemma open_new_ok id : ok (nofile id) (open_new_evs id) (file id 20 20).
Proof.
  intros st Hg. unfold nofile, file, ev_all in *. cbn. rewrite Hg, !fget_fset_same. split; reflexivity.
Qed.

Lemma index_ev_ok id sz e tr (R : fstate -> Prop) :
  ev_file e = (FIndex, id) -> ok (file id sz sz) tr R -> ok (file id sz sz) (e :: tr) R.
Proof.
  intros He Ht. apply (ok_cons _ (file id sz sz)); [|exact Ht]. unfold file. intros st Hg. split.
  - destruct e as [f|f|f off len|f off len|f]; cbn [ev_file] in He; subst f; unfold ev_all;
      cbn [ev_harmless ev_header_synced ev_index_after_sync andb]; try reflexivity.
    destruct off; [rewrite Hg, N.eqb_refl|]; reflexivity.
  - rewrite apply_ev_other; [exact Hg|rewrite He; reflexivity].
Qed.

Lemma dump_ok id sz sy : ok (file id sz sy) (dump_evs id) (file id sz sz).
Proof.
  unfold dump_evs. apply (ok_cons _ (file id sz sz)).
  - unfold file. intros st Hg. split; [reflexivity|]. cbn [apply_ev]. rewrite Hg. apply fget_fset_same.
  - do 4 (apply index_ev_ok; [reflexivity|]). apply ok_nil.
Qed.

Lemma protocol_inv id rs :
  ok (nofile id) (open_new_evs id ++ appends_from K id 20 rs ++ dump_evs id)
     (file id (size_of K rs) (size_of K rs)).
Proof.
  apply (ok_app _ _ _ _ _ (open_new_ok id)).
  apply (ok_app _ _ _ _ _ (appends_ok id rs 20 20 (N.le_refl 20))). apply dump_ok.
Qed.

Theorem protocol_accepted : forall id rs,
  judge (open_new_evs id ++ appends_from K id 20 rs ++ dump_evs id) = true.
Proof. intros id rs. unfold judge. rewrite <- judge_from_all. apply protocol_inv. reflexivity. Qed.

Theorem protocol_clean : forall id rs,
  dirty_of (open_new_evs id ++ appends_from K id 20 rs ++ dump_evs id) (FBlob, id) = 0.
Proof.
  intros id rs. unfold dirty_of.
  destruct (protocol_inv id rs [] eq_refl) as [_ F]. unfold file in F. rewrite F. lia.
Qed.

Lemma find_blob_some l id b : find_blob l id = Some b -> In b l /\ b_id b = id.
Proof.
  induction l as [|x r IH]; cbn [find_blob]; [discriminate|].
  destruct (b_id x =? id) eqn:E.
  - intros H. injection H as <-. apply N.eqb_eq in E. split; [left; reflexivity|exact E].
  - intros H. destruct (IH H). split; [right; assumption|assumption].
Qed.

Lemma find_blob_none l id : find_blob l id = None -> forall b, In b l -> b_id b <> id.
Proof.
  induction l as [|x r IH]; cbn [find_blob]; intros H b Hb; [destruct Hb|].
  destruct (b_id x =? id) eqn:E; [discriminate|].
  destruct Hb as [<-|Hb]; [apply N.eqb_neq, E|apply IH; assumption].
Qed.

Definition only_on (id : N) : list ev -> Prop :=
  Forall (fun e => ev_file e = (FBlob, id) \/ ev_file e = (FIndex, id)).

Lemma only_on_other id tr st id' :
  only_on id tr -> id' <> id -> fget (run_evs st tr) (FBlob, id') = fget st (FBlob, id').
Proof.
  intros H Hne. apply run_evs_other. revert H. apply Forall_impl. intros e [-> | ->]; [|reflexivity].
  apply (proj2 (N.eqb_neq id id')). congruence.
Qed.

Lemma only_on_app id a b : only_on id a -> only_on id b -> only_on id (a ++ b).
Proof. intros Ha Hb. apply Forall_app. split; assumption. Qed.

Lemma only_on_open_new id : only_on id (open_new_evs id).
Proof. repeat (apply Forall_cons; [auto|]). apply Forall_nil. Qed.

Lemma only_on_dump id : only_on id (dump_evs id).
Proof. repeat (apply Forall_cons; [auto|]). apply Forall_nil. Qed.

Lemma only_on_appends id rs : forall off, only_on id (appends_from K id off rs).
Proof.
  induction rs as [|r t IH]; intros off; [apply Forall_nil|].
  apply Forall_cons; [left; reflexivity|apply IH].
Qed.

Lemma only_on_if (c : bool) id a : only_on id a -> only_on id (if c then a else []).
Proof. intros H. destruct c; [exact H|apply Forall_nil]. Qed.

Lemma only_on_blob_evs l b : only_on (b_id b) (blob_evs K l b).
Proof.
  unfold blob_evs. destruct (find_blob l (b_id b)); [|apply only_on_app; [apply only_on_open_new|]].
  all: apply only_on_app; [apply only_on_appends|apply only_on_if, only_on_dump].
Qed.

(* the relation between the blobs of the model and the files reached by the trace *)
Definition FR (l : list blob) (st : fstate) : Prop :=
  (forall b, In b l -> exists sy, fget st (FBlob, b_id b) = Some (blob_size K b, sy) /\ 20 <= sy) /\
  (forall id, (forall b, In b l -> b_id b <> id) -> fget st (FBlob, id) = None).

Lemma blob_size_ge b : 20 <= blob_size K b.
Proof. apply (fold_size_ge K). Qed.

Lemma FR_sync l st id : FR l st -> FR l (apply_ev st (EvSync (FBlob, id))).
Proof.
  intros [H1 H2]. cbn [apply_ev]. destruct (fget st (FBlob, id)) as [[sz sy]|] eqn:E; [|split; assumption].
  split.
  - intros b Hb. destruct (H1 b Hb) as (sy' & Hg & Hs). rewrite fget_fset.
    destruct (fid_eqb (FBlob, id) (FBlob, b_id b)) eqn:Q.
    + apply fid_eqb_eq in Q. injection Q as ->. rewrite Hg in E. injection E as <- <-.
      exists (blob_size K b). split; [reflexivity|apply blob_size_ge].
    + exists sy'. auto.
  - intros id' Hn. rewrite fget_fset. destruct (fid_eqb (FBlob, id) (FBlob, id')) eqn:Q.
    + apply fid_eqb_eq in Q. injection Q as ->. rewrite (H2 _ Hn) in E. discriminate.
    + apply H2, Hn.
Qed.

Definition syncs : list ev -> Prop := Forall (fun e => exists id, e = EvSync (FBlob, id)).

Lemma syncs_ok tr l : syncs tr -> ok (FR l) tr (FR l).
Proof.
  induction 1 as [|e r [id ->] _ IH]; [apply ok_nil|].
  apply (ok_cons _ (FR l)); [|exact IH].
  intros st HF. split; [reflexivity|apply FR_sync, HF].
Qed.

Lemma syncs_one id : syncs [EvSync (FBlob, id)].
Proof. apply Forall_cons; [eauto|apply Forall_nil]. Qed.

Lemma syncs_empty_dump l : syncs (empty_dump_syncs l).
Proof.
  apply Forall_flat_map, Forall_forall. intros b _.
  destruct (negb (b_ondisk b) && match b_idx b with [] => true | _ => false end); [apply syncs_one|apply Forall_nil].
Qed.

Lemma syncs_if (c : bool) a : syncs a -> syncs (if c then a else []).
Proof. intros H. destruct c; [exact H|apply Forall_nil]. Qed.

Lemma blob_size_recs_eq b b' : b_recs b' = b_recs b -> blob_size K b' = blob_size K b.
Proof. intros E. unfold blob_size. rewrite E. reflexivity. Qed.

Lemma FR_same l l' st : Forall2 same_ir l l' -> FR l st -> FR l' st.
Proof.
  intros HS [H1 H2]. split.
  - intros b' Hb'. destruct (Forall2_same_in_r l l' HS b' Hb') as (b & Hb & Ei & Er).
    rewrite Ei, (blob_size_recs_eq b b' Er). apply H1, Hb.
  - intros id Hn. apply H2. intros b Hb E. destruct (Forall2_same_in l l' HS b Hb) as (b' & Hb' & Ei & _).
    apply (Hn b' Hb'). congruence.
Qed.

(* a trace made of one chunk per blob: a chunk leaves the files of the other blobs alone, so what each chunk does to its
   own file holds of the whole trace *)
Lemma flat_map_chunks (f : blob -> list ev) (Pre Post : blob -> option (N * N) -> Prop) :
  (forall b, only_on (b_id b) (f b)) ->
  forall l, NoDup (map b_id l) ->
  (forall b, In b l -> ok (fun st => Pre b (fget st (FBlob, b_id b))) (f b)
                          (fun st => Post b (fget st (FBlob, b_id b)))) ->
  forall st, (forall b, In b l -> Pre b (fget st (FBlob, b_id b))) ->
  judge_from ev_all st (flat_map f l) = true /\
  (forall b, In b l -> Post b (fget (run_evs st (flat_map f l)) (FBlob, b_id b))) /\
  (forall id, (forall b, In b l -> b_id b <> id) ->
     fget (run_evs st (flat_map f l)) (FBlob, id) = fget st (FBlob, id)).
Proof.
  intros Hon. induction l as [|a r IH]; intros ND Hch st Hpre.
  - cbn [flat_map judge_from]. split; [reflexivity|]. split; [intros b []|reflexivity].
  - cbn [flat_map]. rewrite judge_from_app, run_evs_app.
    apply NoDup_cons_iff in ND as [Hnin ND'].
    destruct (Hch a (or_introl eq_refl) st (Hpre a (or_introl eq_refl))) as [Ja Pa].
    set (st1 := run_evs st (f a)) in *.
    assert (Hoth : forall b, In b r -> b_id b <> b_id a).
    { intros b Hb E. apply Hnin. rewrite <- E. apply in_map, Hb. }
    assert (Hpre1 : forall b, In b r -> Pre b (fget st1 (FBlob, b_id b))).
    { intros b Hb. unfold st1. rewrite (only_on_other (b_id a) _ _ _ (Hon a) (Hoth b Hb)).
      apply Hpre. right; exact Hb. }
    destruct (IH ND' (fun b Hb => Hch b (or_intror Hb)) st1 Hpre1) as (Jr & Pr & Or).
    rewrite Ja, Jr. split; [reflexivity|]. split.
    + intros b [<-|Hb].
      * rewrite Or by exact Hoth. exact Pa.
      * apply Pr, Hb.
    + intros id Hid. rewrite Or by (intros b Hb; apply Hid; right; exact Hb).
      apply (only_on_other (b_id a) _ _ _ (Hon a)).
      intros E. apply (Hid a (or_introl eq_refl)). auto.
Qed.

(* the file of a blob as FR wants it; before the chunk of b' it is so for the old blob with the id of b', if there is one *)
Definition PostB (b : blob) (v : option (N * N)) : Prop :=
  exists sy, v = Some (blob_size K b, sy) /\ 20 <= sy.
Definition PreB (l : list blob) (b' : blob) (v : option (N * N)) : Prop :=
  match find_blob l (b_id b') with Some b => PostB b v | None => v = None end.

Lemma FR_PreB l st : FR l st -> forall b', PreB l b' (fget st (FBlob, b_id b')).
Proof.
  intros [H1 H2] b'. unfold PreB. destruct (find_blob l (b_id b')) as [b|] eqn:E.
  - apply find_blob_some in E. destruct E as [Hb <-]. apply H1, Hb.
  - apply H2. apply find_blob_none, E.
Qed.

Lemma opt_dump_ok (c : bool) id sz sy : 20 <= sy -> 20 <= sz ->
  ok (file id sz sy) (if c then dump_evs id else [])
     (fun st => exists sy', fget st (FBlob, id) = Some (sz, sy') /\ 20 <= sy').
Proof.
  intros Hsy Hsz. destruct c.
  - apply (ok_post _ _ _ _ (dump_ok id sz sy)). intros st F. exists sz. split; assumption.
  - apply (ok_post _ _ _ _ (ok_nil _)). intros st F. exists sy. split; assumption.
Qed.

Lemma blob_evs_chunk l b' :
  (forall b, find_blob l (b_id b') = Some b -> prefix_of (b_recs b) (b_recs b')) ->
  ok (fun st => PreB l b' (fget st (FBlob, b_id b'))) (blob_evs K l b')
     (fun st => PostB b' (fget st (FBlob, b_id b'))).
Proof.
  intros Hp. unfold PreB, blob_evs. destruct (find_blob l (b_id b')) as [b|].
  - intros st (sy & Hg & Hsy). destruct (Hp b eq_refl) as [t Ht].
    rewrite Ht, skipn_app_exact.
    refine (ok_app _ _ (fun st => PostB b' (fget st (FBlob, b_id b'))) _ _
              (appends_ok (b_id b') t _ sy Hsy) _ st Hg).
    assert (Hsz : fold_left (fun a r => a + rec_size K r) t (blob_size K b) = blob_size K b').
    { unfold blob_size. rewrite Ht, fold_left_app. reflexivity. }
    rewrite Hsz. apply opt_dump_ok; [exact Hsy|apply blob_size_ge].
  - apply (ok_app _ _ _ _ _ (open_new_ok (b_id b'))).
    apply (ok_app _ _ _ _ _ (appends_ok (b_id b') (b_recs b') 20 20 (N.le_refl 20))).
    apply (opt_dump_ok _ _ (blob_size K b')); [apply N.le_refl|apply blob_size_ge].
Qed.

(* every old blob has a successor with its id, related to it by R; the chunk of a new blob may rely on R for the old
   blob it finds, since the ids of the new blobs are distinct *)
Lemma chunks_ok (R : blob -> blob -> Prop) (f : blob -> list ev) l l' :
  NoDup (map b_id l') -> (forall b, In b l -> exists b', In b' l' /\ b_id b' = b_id b /\ R b b') ->
  (forall b', only_on (b_id b') (f b')) ->
  (forall b', (forall b, find_blob l (b_id b') = Some b -> R b b') -> In b' l' ->
     ok (fun st => PreB l b' (fget st (FBlob, b_id b'))) (f b') (fun st => PostB b' (fget st (FBlob, b_id b')))) ->
  ok (FR l) (flat_map f l') (FR l').
Proof.
  intros ND' HL Hon Hch st HF.
  destruct (flat_map_chunks f (PreB l) PostB Hon l' ND') with (st := st) as (J & P & O).
  - intros b' Hb'. apply Hch; [|exact Hb'].
    intros b E. apply find_blob_some in E. destruct E as [Hb Ei].
    destruct (HL b Hb) as (b'' & Hb'' & Ei' & HR).
    assert (b'' = b') by (apply (nodup_id_inj l'); auto; congruence). subst b''. exact HR.
  - intros b' _. apply FR_PreB, HF.
  - split; [exact J|]. split; [exact P|].
    intros id Hn. rewrite O by exact Hn. apply (proj2 HF).
    intros b Hb E. destruct (HL b Hb) as (b' & Hb' & Ei & _). apply (Hn b' Hb'). congruence.
Qed.

(* [sync of the closing blob]; all blobs of the new state, which extends the old one; syncs of the dump pass *)
Lemma syncs_chunks_syncs_ok l l' : NoDup (map b_id l') -> lext l l' ->
  forall p d, syncs p -> syncs d -> ok (FR l) (p ++ flat_map (blob_evs K l) l' ++ d) (FR l').
Proof.
  intros ND HL p d Sp Sd. apply (ok_app _ _ _ _ _ (syncs_ok p l Sp)).
  refine (ok_app _ _ _ _ _ _ (syncs_ok d l' Sd)).
  apply (chunks_ok (fun b b' => prefix_of (b_recs b) (b_recs b'))); [exact ND|exact HL|apply only_on_blob_evs|].
  intros b' Hp _. apply blob_evs_chunk, Hp.
Qed.

(* the events of one blob in the trace Trace.step_evs gives for the opening of a closed storage *)
Definition open_chunk (l : list blob) (b : blob) : list ev :=
  match find_blob l (b_id b) with
  | Some b0 => if b_ondisk b && negb (match b_idxfile b0 with Some (sz, _) => sz =? blob_size K b0 | None => false end)
               then dump_evs (b_id b) else []
  | None => open_new_evs (b_id b)
  end.

Lemma only_on_open_chunk l b : only_on (b_id b) (open_chunk l b).
Proof.
  unfold open_chunk. destruct (find_blob l (b_id b)); [apply only_on_if, only_on_dump|apply only_on_open_new].
Qed.

Lemma open_chunk_ok l b' :
  (forall b0, find_blob l (b_id b') = Some b0 -> b_recs b' = b_recs b0) ->
  (find_blob l (b_id b') = None -> b_recs b' = []) ->
  ok (fun st => PreB l b' (fget st (FBlob, b_id b'))) (open_chunk l b')
     (fun st => PostB b' (fget st (FBlob, b_id b'))).
Proof.
  intros HS HN. unfold PreB, open_chunk, PostB. destruct (find_blob l (b_id b')) as [b0|].
  - intros st (sy & Hg & Hsy). rewrite <- (blob_size_recs_eq b0 b' (HS b0 eq_refl)) in Hg.
    exact (opt_dump_ok _ (b_id b') _ sy Hsy (blob_size_ge b') st Hg).
  - apply (ok_post _ _ _ _ (open_new_ok (b_id b'))). intros st F. exists 20.
    unfold blob_size. rewrite F, (HN eq_refl). split; [reflexivity|apply N.le_refl].
Qed.

Lemma reopen_ok files l' d :
  NoDup (map b_id l') ->
  (forall f, In f files -> exists b', In b' l' /\ b_id b' = b_id f /\ b_recs b' = b_recs f) ->
  (forall b', In b' l' -> (exists b, In b files /\ b_id b = b_id b') \/ b_recs b' = []) ->
  syncs d -> ok (FR files) (flat_map (open_chunk files) l' ++ d) (FR l').
Proof.
  intros ND' HK HM Sd. refine (ok_app _ _ _ _ _ _ (syncs_ok d l' Sd)).
  apply (chunks_ok (fun b b' => b_recs b' = b_recs b)); [exact ND'|exact HK|apply only_on_open_chunk|].
  intros b' HS Hb'. apply open_chunk_ok; [exact HS|].
  intros E. destruct (HM b' Hb') as [(b & Hb & Ei)|Hr]; [|exact Hr].
  exfalso. exact (find_blob_none _ _ E b Hb Ei).
Qed.

Variable cfg : config.

(* `is_cut o = false`, `s_bad pre = []`: the trace is what the STORAGE asks of the file system. Damage done by a crash
   (OCut) changes a file behind its back, and the file state followed here knows no truncation and no rename. *)
Lemma step_trace_ok pre o :
  IdsOk pre -> NoActiveWhenClosed pre -> is_cut o = false -> s_bad pre = [] ->
  ok (FR (blobs_in_order pre)) (step_evs K cfg pre (fst (step_q K cfg pre o)) o)
     (FR (blobs_in_order (fst (step_q K cfg pre o)))).
Proof.
  intros HI HN Hcut HB.
  pose proof (proj1 HI) as Hinc.
  pose proof (increasing_NoDup _ (proj1 (step_q_IdsOk K cfg pre o HI))) as ND'.
  pose proof (syncs_chunks_syncs_ok _ _ ND' (step_q_lext K cfg pre o HN Hcut HB)) as Hgen.
  (* step_evs names four operations; for every other one the trace is the chunks, then the syncs of the dump pass *)
  destruct o; try (apply (Hgen []); [apply Forall_nil|apply syncs_if, syncs_empty_dump]).
  - (* OCloseActive *)
    unfold step_evs. destruct (s_active pre) as [a|].
    + apply (Hgen [_]); [apply syncs_one|apply syncs_if, syncs_empty_dump].
    + apply (Hgen []); [apply Forall_nil|apply syncs_if, syncs_empty_dump].
  - (* OClose *)
    unfold step_evs. apply (Hgen []); [apply Forall_nil|]. destruct (s_active pre); [apply syncs_empty_dump|apply Forall_nil].
  - (* OOpen *)
    unfold step_evs, all_blobs. destruct (s_open pre) eqn:EO.
    + apply (ok_post _ _ _ _ (ok_nil _)). intros st. apply FR_same.
      rewrite step_q_fst, (step_open K cfg pre _ EO). apply same_quiesce.
    + rewrite (step_q_open K cfg pre lazy EO), HB in *.
      rewrite (bio_closed pre HN EO) in *.
      apply (reopen_ok (closed_blobs pre) _ _ ND'); [| |apply syncs_empty_dump].
      * intros f Hf. apply do_open_keeps_recs. rewrite good_files_nil. exact Hf.
      * intros b' Hb'. apply (do_open_old_or_new K _ _ _ _ _ _ Hinc Hb').
  - (* OCut *) discriminate Hcut.
Qed.

Lemma run_trace_ok ops : forall s,
  IdsOk s -> NoActiveWhenClosed s -> no_cut ops -> s_bad s = [] ->
  ok (FR (blobs_in_order s)) (run_trace K cfg s ops) (FR (blobs_in_order (fst (run K cfg s ops)))).
Proof.
  induction ops as [|o r IH]; intros s HI HN Hc HB; [apply ok_nil|].
  apply no_cut_cons in Hc. destruct Hc as [Hco Hcr].
  specialize (IH _ (step_q_IdsOk K cfg s o HI) (step_q_NoActiveWhenClosed K cfg s o HN) Hcr (bad_step_q K cfg s o Hco HB)).
  cbn [run_trace]. cbv zeta. rewrite run_cons.
  exact (ok_app _ _ _ _ _ (step_trace_ok s o HI HN Hco HB) IH).
Qed.

Lemma FR_nil : FR [] [].
Proof. split; [intros b []|reflexivity]. Qed.

(* with crash damage in the history: whatever happened before (cuts, quarantine), judged from a file state that matches
   the directory as the crash left it -- every blob file with the length the model gives it and a synced header, no other
   blob file -- the trace of every continuation without further damage is accepted, and its files match the final
   state. (A real trace is judged this way when the follower of the file state is told the new length of a cut file
   and forgets a file moved to the corrupted directory.) *)
Theorem trace_after_crash_accepted : forall ops1 ops2 st,
  let s := fst (run K cfg init_storage ops1) in
  no_cut ops2 -> s_bad s = [] -> FR (blobs_in_order s) st ->
  judge_from ev_harmless st (run_trace K cfg s ops2) && judge_from ev_header_synced st (run_trace K cfg s ops2)
    && judge_from ev_index_after_sync st (run_trace K cfg s ops2) = true /\
  FR (blobs_in_order (fst (run K cfg s ops2))) (run_evs st (run_trace K cfg s ops2)).
Proof.
  intros ops1 ops2 st s Hc HB HF.
  assert (HI : IdsOk s) by (apply run_IdsOk, init_IdsOk).
  assert (HN : NoActiveWhenClosed s) by (apply run_NoActiveWhenClosed, init_NoActiveWhenClosed).
  rewrite <- judge_from_all. exact (run_trace_ok ops2 s HI HN Hc HB st HF).
Qed.

(* from the empty directory: the trace of a history without crash damage is accepted ... *)
Theorem history_trace_accepted : forall ops, no_cut ops -> judge (run_trace K cfg init_storage ops) = true.
Proof. intros ops Hc. exact (proj1 (trace_after_crash_accepted [] ops [] Hc eq_refl FR_nil)). Qed.

(* ... and every blob of the final state has its file, of the length the model gives it and with a synced header
   (that there is no other blob file is the second half of FR, in trace_after_crash_accepted) *)
Theorem history_files_match : forall ops b,
  no_cut ops ->
  In b (blobs_in_order (fst (run K cfg init_storage ops))) ->
  exists sy, fget (run_evs [] (run_trace K cfg init_storage ops)) (FBlob, b_id b) = Some (blob_size K b, sy) /\ 20 <= sy.
Proof. intros ops b Hc Hb. exact (proj1 (proj2 (trace_after_crash_accepted [] ops [] Hc eq_refl FR_nil)) b Hb). Qed.

(* why `no_cut` is needed as long as the trace has no event for the damage: the append after the restart lands below
   the length followed so far *)
Example cut_trace_not_accepted :
  let cfg := {| c_dup := true; c_maxrec := 1000; c_maxsize := 1000000 |} in
  judge (run_trace 4 cfg init_storage
           [OOpen false; OWrite 1 7 None 8 5 1; OWrite 2 8 None 8 5 2; ODrop; OCut 0 (Some 1%nat); OOpen false;
            OWrite 3 9 None 8 5 3]) = false /\
  judge (run_trace 4 cfg init_storage
           [OOpen false; OWrite 1 7 None 8 5 1; OWrite 2 8 None 8 5 2; ODrop; OOpen false; OWrite 3 9 None 8 5 3]) = true.
Proof. vm_compute. split; reflexivity. Qed.

End K.

Check history_trace_accepted.
Check protocol_accepted.
Check protocol_clean.
Print Assumptions harmless_meaning.
Print Assumptions harmless_no_positional.
Print Assumptions harmless_no_recreate.
Print Assumptions header_synced_meaning.
Print Assumptions index_after_sync_meaning.
Print Assumptions protocol_accepted.
Print Assumptions protocol_clean.
Print Assumptions history_trace_accepted.
Print Assumptions history_files_match.
Print Assumptions trace_after_crash_accepted.
Print Assumptions cut_trace_not_accepted.
