(* The index file that Pearl.Index.BPTree.serialize builds answers every lookup, counts and loads back like the
   in-memory index it was built from (serialize_equiv). *)
Require Import Pearl.Base.Prelude Pearl.Index.BPTree.
From Coq Require Import Sorting.Sorted.

Lemma StronglySorted_app_inv {A} (R : A -> A -> Prop) (a b : list A) : StronglySorted R (a ++ b) ->
  StronglySorted R a /\ StronglySorted R b /\ forall x y, In x a -> In y b -> R x y.
Proof.
  induction a as [|x a IH]; cbn [app]; intros Hs.
  - split; [constructor|]. split; [assumption|]. intros x y [].
  - apply StronglySorted_inv in Hs. destruct Hs as [Hs Hx]. destruct (IH Hs) as (Ha & Hb & Hab).
    apply Forall_app in Hx. destruct Hx as [Hxa Hxb].
    split; [constructor; assumption|]. split; [assumption|].
    intros y z [Hy|Hy] Hz.
    + subst y. rewrite Forall_forall in Hxb. apply Hxb. assumption.
    + apply Hab; assumption.
Qed.

Lemma nth_error_skipn_ {A} (s : nat) (l : list A) i : nth_error (skipn s l) i = nth_error l (s + i).
Proof.
  revert l; induction s as [|s IH]; intros [|x l]; cbn; auto. destruct i; reflexivity.
Qed.

Lemma nth_error_firstn_lt {A} (n : nat) (l : list A) i :
  (i < n)%nat -> nth_error (firstn n l) i = nth_error l i.
Proof.
  revert l i; induction n as [|n IH]; intros l i Hi; [lia|].
  destruct l as [|x l]; [reflexivity|]. destruct i as [|i]; cbn; [reflexivity|]. apply IH; lia.
Qed.

Lemma nth_error_window {A} (l : list A) s n t : (t < n)%nat ->
  nth_error (firstn n (skipn s l)) t = nth_error l (s + t).
Proof. intros Ht. rewrite nth_error_firstn_lt, nth_error_skipn_ by assumption. reflexivity. Qed.

Lemma In_window {A} (l : list A) s n x : In x (firstn n (skipn s l)) -> In x l.
Proof.
  intros Hin. rewrite <- (firstn_skipn s l). apply in_or_app. right.
  rewrite <- (firstn_skipn n (skipn s l)). apply in_or_app. left. assumption.
Qed.

Lemma map_tl_ {A C} (f : A -> C) l : map f (tl l) = tl (map f l).
Proof. destruct l; reflexivity. Qed.

Lemma ne_length {A} (l : list A) : l <> [] <-> (1 <= length l)%nat.
Proof. destruct l; cbn [length]; split; intros Hl; try lia; congruence. Qed.

Lemma split_nth {A} (l : list A) j d : (j < length l)%nat ->
  l = firstn j l ++ nth j l d :: skipn (S j) l.
Proof.
  revert j; induction l as [|x l IH]; intros j Hj; cbn [length] in Hj; [lia|].
  destruct j as [|j]; cbn [firstn nth skipn app]; [reflexivity|]. f_equal. apply IH. lia.
Qed.

Section Proofs.
Variable H : Type.
Variable hkey : H -> N.
Variables (B ksz rhs : N).

Local Notation inmem := (BPTree.inmem H).
Local Notation flat := (BPTree.flat H).
Local Notation count := (BPTree.count H).
Local Notation serialize := (BPTree.serialize H B ksz rhs).
Local Notation load_file := (BPTree.load_file H hkey).
Local Notation load_aux := (BPTree.load_aux H hkey).
Local Notation lookup := (BPTree.lookup H).
Local Notation get_latest_mem := (BPTree.get_latest_mem H).
Local Notation get_all_mem := (BPTree.get_all_mem H).
Local Notation get_latest_file := (BPTree.get_latest_file H hkey B ksz rhs).
Local Notation get_all_file := (BPTree.get_all_file H hkey B ksz rhs).
Local Notation file_size := (BPTree.file_size H rhs).
Local Notation buf_recs := (BPTree.buf_recs H B rhs).
Local Notation bsearch := (BPTree.bsearch H hkey).
Local Notation leftmost := (BPTree.leftmost H hkey).
Local Notation take_while_key := (BPTree.take_while_key H hkey).
Local Notation find_leaf := (BPTree.find_leaf H B ksz rhs).
Local Notation node_at := (BPTree.node_at H B ksz rhs).
Local Notation node_at_aux := (BPTree.node_at_aux ksz).
Local Notation node_size := (BPTree.node_size ksz).
Local Notation nodes_size := (BPTree.nodes_size ksz).
Local Notation max_amount := (BPTree.max_amount B ksz).
Local Notation min_amount := (BPTree.min_amount B ksz).
Local Notation groups := (BPTree.groups B ksz).
Local Notation mk_groups := (BPTree.mk_groups B ksz).
Local Notation next_layer := (BPTree.next_layer B ksz).
Local Notation build_tree := (BPTree.build_tree B ksz).
Local Notation leaves := (BPTree.leaves H B rhs).
Local Notation leaf_step := (BPTree.leaf_step H B rhs).

Definition wf (m : inmem) : Prop :=
  StronglySorted (fun a b => fst a < fst b) m /\
  Forall (fun kv => snd kv <> [] /\ Forall (fun h => hkey h = fst kv) (snd kv)) m.

Lemma wf_cons_inv k v m : wf ((k, v) :: m) ->
  v <> [] /\ Forall (fun h => hkey h = k) v /\ Forall (fun kv => k < fst kv) m /\ wf m.
Proof.
  intros [Hs Hf]. inversion Hs as [|a l Hs' Hlt]; subst. inversion Hf as [|a l [Hne Hk] Hf']; subst.
  cbn in *. repeat split; assumption.
Qed.

Lemma wf_app_inv m1 m2 : wf (m1 ++ m2) ->
  wf m1 /\ wf m2 /\ forall x y, In x m1 -> In y m2 -> fst x < fst y.
Proof.
  intros [Hs Hf]. apply StronglySorted_app_inv in Hs. destruct Hs as (Hs1 & Hs2 & Hlt).
  apply Forall_app in Hf. destruct Hf as [Hf1 Hf2].
  split; [split; assumption|]. split; [split; assumption|exact Hlt].
Qed.

Lemma wf_split_lt m1 k v m2 : wf (m1 ++ (k, v) :: m2) ->
  Forall (fun kv => fst kv < k) m1 /\ Forall (fun kv => k < fst kv) m2.
Proof.
  intros Hw. destruct (wf_app_inv _ _ Hw) as (_ & Hw2 & Hlt). split.
  - apply Forall_forall. intros x Hx. apply (Hlt x (k, v) Hx). left. reflexivity.
  - apply wf_cons_inv in Hw2. tauto.
Qed.

Theorem count_serialize : forall hdr_end m, f_count (serialize hdr_end m) = count m.
Proof. reflexivity. Qed.

Theorem recs_serialize : forall hdr_end m, recs (serialize hdr_end m) = flat m.
Proof. reflexivity. Qed.

Lemma flat_cons k v (m : inmem) : flat ((k, v) :: m) = rev v ++ flat m.
Proof. reflexivity. Qed.

Lemma flat_app (m1 m2 : inmem) : flat (m1 ++ m2) = flat m1 ++ flat m2.
Proof. unfold BPTree.flat. apply flat_map_app. Qed.

Lemma firstn_count_flat m : firstn (N.to_nat (count m)) (flat m) = flat m.
Proof. unfold BPTree.count. rewrite Nat2N.id. apply firstn_all. Qed.

Lemma load_aux_run : forall l rest k v acc,
  Forall (fun h => hkey h = k) l ->
  load_aux (l ++ rest) (Some (k, v)) acc = load_aux rest (Some (k, rev l ++ v)) acc.
Proof.
  induction l as [|h l IH]; intros rest k v acc Hl.
  - reflexivity.
  - inversion Hl as [|a l' Hh Hl']; subst. cbn [app BPTree.load_aux].
    rewrite N.eqb_refl. rewrite IH by assumption. cbn [rev]. rewrite <- app_assoc. reflexivity.
Qed.

(* the entry the loader is still collecting, as what it will append to the result *)
Definition flush (cur : option (N * list H)) : inmem :=
  match cur with Some kv => [kv] | None => [] end.
Definition cur_below (cur : option (N * list H)) (k : N) : Prop :=
  match cur with Some (k0, _) => k0 < k | None => True end.

Lemma load_aux_start l rest k cur acc :
  l <> [] -> Forall (fun h => hkey h = k) l -> cur_below cur k ->
  load_aux (l ++ rest) cur acc = load_aux rest (Some (k, rev l)) (acc ++ flush cur).
Proof.
  intros Hne Hl Hc. destruct l as [|h l]; [congruence|]. inversion Hl as [|a b Hh Hl']; subst.
  cbn [app BPTree.load_aux]. destruct cur as [[k0 v0]|]; cbn [cur_below flush] in *.
  - assert (E : (hkey h =? k0) = false) by (apply N.eqb_neq; lia). rewrite E.
    rewrite load_aux_run by assumption. reflexivity.
  - rewrite load_aux_run, app_nil_r by assumption. reflexivity.
Qed.

Lemma load_aux_flat : forall m cur acc,
  wf m -> Forall (fun kv => cur_below cur (fst kv)) m ->
  load_aux (flat m) cur acc = acc ++ flush cur ++ m.
Proof.
  induction m as [|[k v] m IH]; intros cur acc Hw Hc.
  - destruct cur as [[k0 v0]|]; cbn; [reflexivity|]. rewrite app_nil_r. reflexivity.
  - apply wf_cons_inv in Hw. destruct Hw as (Hne & Hk & Hlt & Hw). rewrite flat_cons.
    rewrite (load_aux_start (rev v) (flat m) k).
    + rewrite IH by assumption. rewrite rev_involutive, <- !app_assoc. reflexivity.
    + intros E. apply Hne. rewrite <- (rev_involutive v), E. reflexivity.
    + apply Forall_rev. assumption.
    + exact (Forall_inv Hc).
Qed.

Theorem load_serialize : forall hdr_end m, wf m -> load_file (serialize hdr_end m) = m.
Proof.
  intros hdr_end m Hw. unfold BPTree.load_file.
  rewrite count_serialize, recs_serialize, firstn_count_flat.
  apply (load_aux_flat m None [] Hw). apply Forall_forall. intros kv _. exact I.
Qed.

Definition ksorted (l : list H) : Prop :=
  forall i j a b, (i <= j)%nat -> nth_error l i = Some a -> nth_error l j = Some b -> hkey a <= hkey b.

Lemma ksorted_window l s n : ksorted l -> ksorted (firstn n (skipn s l)).
Proof.
  intros Hs i j a b Hij Ha Hb.
  assert (Hj : (j < length (firstn n (skipn s l)))%nat) by (apply nth_error_Some; congruence).
  rewrite firstn_length in Hj.
  rewrite nth_error_window in Ha, Hb by lia.
  eapply Hs; [|eassumption|eassumption]. lia.
Qed.

Lemma ksorted_app l1 l2 : ksorted l1 -> ksorted l2 ->
  (forall a b, In a l1 -> In b l2 -> hkey a <= hkey b) -> ksorted (l1 ++ l2).
Proof.
  intros H1 H2 H12 i j a b Hij Ha Hb.
  destruct (Nat.lt_ge_cases j (length l1)) as [Hj|Hj].
  - rewrite nth_error_app1 in Ha, Hb by lia. eapply (H1 i j); eassumption.
  - rewrite nth_error_app2 in Hb by lia.
    destruct (Nat.lt_ge_cases i (length l1)) as [Hi|Hi].
    + rewrite nth_error_app1 in Ha by lia. apply H12; eapply nth_error_In; eassumption.
    + rewrite nth_error_app2 in Ha by lia. eapply H2; [|eassumption|eassumption]. lia.
Qed.

Lemma ksorted_const l k : Forall (fun h => hkey h = k) l -> ksorted l.
Proof.
  intros Hl i j a b _ Ha Hb. rewrite Forall_forall in Hl.
  rewrite (Hl a), (Hl b) by (eapply nth_error_In; eassumption). lia.
Qed.

Lemma flat_keys (P : N -> Prop) m h : wf m -> Forall (fun kv => P (fst kv)) m -> In h (flat m) -> P (hkey h).
Proof.
  intros [_ Hf] Hall Hin. unfold BPTree.flat in Hin. rewrite in_flat_map in Hin.
  destruct Hin as [[k v] [Hkv Hh]]. cbn [snd] in Hh. apply in_rev in Hh.
  rewrite Forall_forall in Hf, Hall. destruct (Hf _ Hkv) as [_ Hk]. cbn [fst snd] in Hk.
  rewrite Forall_forall in Hk. rewrite (Hk h Hh). exact (Hall _ Hkv).
Qed.

Lemma ksorted_flat m : wf m -> ksorted (flat m).
Proof.
  induction m as [|[k v] m IH]; intros Hw.
  - intros i j a b _ Ha. destruct i; discriminate.
  - apply wf_cons_inv in Hw. destruct Hw as (Hne & Hk & Hlt & Hw). rewrite flat_cons.
    apply ksorted_app.
    + apply (ksorted_const _ k). apply Forall_rev. assumption.
    + apply IH. assumption.
    + intros a b Ha Hb. apply in_rev in Ha. rewrite Forall_forall in Hk. rewrite (Hk a Ha).
      apply N.lt_le_incl. exact (flat_keys (fun x => k < x) m b Hw Hlt Hb).
Qed.

(* binary search on a sorted buffer: as long as every record of key k lies in [l, r], the search finds
   one, or there is none *)
Lemma bsearch_spec : forall fuel buf k l r,
  ksorted buf -> (0 <= l)%Z -> (r < Z.of_nat (length buf))%Z -> (r - l + 1 < Z.of_nat fuel)%Z ->
  (forall i h, nth_error buf i = Some h -> hkey h = k -> (l <= Z.of_nat i <= r)%Z) ->
  match bsearch fuel buf k l r with
  | Some i => exists h, nth_error buf i = Some h /\ hkey h = k
  | None => forall h, In h buf -> hkey h <> k
  end.
Proof.
  induction fuel as [|fu IH]; intros buf k l r Hs Hl Hr Hf Hin; cbn [BPTree.bsearch].
  - (* an empty range holds no record of the key *)
    intros h Hh Hk. apply In_nth_error in Hh. destruct Hh as [i Hi]. specialize (Hin i h Hi Hk). lia.
  - destruct (r <? l)%Z eqn:Erl.
    { apply Z.ltb_lt in Erl. intros h Hh Hk. apply In_nth_error in Hh. destruct Hh as [i Hi].
      specialize (Hin i h Hi Hk). lia. }
    apply Z.ltb_ge in Erl.
    set (m := ((l + r) / 2)%Z).
    assert (Hm : (l <= m <= r)%Z).
    { subst m. split; [apply Z.div_le_lower_bound | apply Z.div_le_upper_bound]; lia. }
    destruct (nth_error buf (Z.to_nat m)) as [h|] eqn:En.
    2:{ apply nth_error_None in En. lia. }
    destruct (k <? hkey h) eqn:E1; [|destruct (hkey h <? k) eqn:E2].
    + apply N.ltb_lt in E1. apply IH; [assumption|lia|lia|lia|].
      intros i h' Hn Hk'. specialize (Hin i h' Hn Hk').
      destruct (Z.le_gt_cases (Z.of_nat i) (m - 1)) as [|Hgt]; [lia|].
      assert (hkey h <= hkey h') by (eapply (Hs (Z.to_nat m) i); [lia|eassumption|eassumption]). lia.
    + apply N.ltb_lt in E2. apply IH; [assumption|lia|lia|lia|].
      intros i h' Hn Hk'. specialize (Hin i h' Hn Hk').
      destruct (Z.le_gt_cases (m + 1) (Z.of_nat i)) as [|Hgt]; [lia|].
      assert (hkey h' <= hkey h) by (eapply (Hs i (Z.to_nat m)); [lia|eassumption|eassumption]). lia.
    + apply N.ltb_ge in E1. apply N.ltb_ge in E2. exists h. split; [assumption|lia].
Qed.

Lemma bsearch_full buf k : ksorted buf ->
  match bsearch (S (length buf)) buf k 0 (Z.of_nat (length buf) - 1) with
  | Some i => exists h, nth_error buf i = Some h /\ hkey h = k
  | None => forall h, In h buf -> hkey h <> k
  end.
Proof.
  intros Hs. apply bsearch_spec; [assumption|lia|lia|lia|].
  intros i h Hn _. assert (i < length buf)%nat by (apply nth_error_Some; congruence). lia.
Qed.

Definition first_at (l : list H) (k : N) (p : nat) : Prop :=
  (exists h, nth_error l p = Some h /\ hkey h = k) /\
  (forall t h, (t < p)%nat -> nth_error l t = Some h -> hkey h <> k).

(* started on a record of key k at or behind the first one, the leftward walk stops on the first one:
   the records in between have key k because the buffer is sorted *)
Lemma leftmost_first buf k q : ksorted buf -> first_at buf k q ->
  forall i hi, (q <= i)%nat -> nth_error buf i = Some hi -> hkey hi = k -> leftmost buf k i = q.
Proof.
  intros Hs [[h0 [Hq Hk0]] Hbefore]. induction i as [|i IH]; intros hi Hqi Hni Hki; cbn [BPTree.leftmost].
  - lia.
  - destruct (nth_error buf i) as [h|] eqn:En.
    2:{ apply nth_error_None in En. assert (S i < length buf)%nat by (apply nth_error_Some; congruence). lia. }
    destruct (Nat.eq_dec q (S i)) as [Heq|Hne].
    + destruct (N.eqb_spec (hkey h) k) as [E|E]; [|symmetry; exact Heq].
      exfalso. apply (Hbefore i h); [lia|assumption|assumption].
    + assert (hkey h0 <= hkey h) by (eapply (Hs q i); [lia|eassumption|eassumption]).
      assert (hkey h <= hkey hi) by (eapply (Hs i (S i)); [lia|eassumption|eassumption]).
      assert (E : hkey h = k) by lia. rewrite (proj2 (N.eqb_eq _ _) E). apply (IH h); [lia|reflexivity|exact E].
Qed.

(* on a sorted buffer that holds the key, the binary search succeeds and the leftward walk stops
   exactly on the first record of the key *)
Lemma search_first buf k q : ksorted buf -> first_at buf k q ->
  exists i, bsearch (S (length buf)) buf k 0 (Z.of_nat (length buf) - 1) = Some i /\
            leftmost buf k i = q.
Proof.
  intros Hs Hfirst. pose proof (bsearch_full buf k Hs) as Hb.
  pose proof Hfirst as [[h0 [Hq Hk0]] Hbefore].
  destruct (bsearch (S (length buf)) buf k 0 (Z.of_nat (length buf) - 1)) as [i|].
  2:{ exfalso. apply (Hb h0); [eapply nth_error_In; eassumption|assumption]. }
  exists i. split; [reflexivity|]. destruct Hb as [hi [Hni Hki]].
  apply (leftmost_first buf k q Hs Hfirst i hi); [|assumption|assumption].
  destruct (Nat.le_gt_cases q i) as [|Hlt]; [assumption|]. exfalso. exact (Hbefore i hi Hlt Hni Hki).
Qed.

Lemma first_at_window l k p s n : first_at l k p -> (s <= p < s + n)%nat ->
  first_at (firstn n (skipn s l)) k (p - s).
Proof.
  intros [[h0 [Hp Hk0]] Hbefore] Hsp. split.
  - exists h0. rewrite nth_error_window by lia. replace (s + (p - s))%nat with p by lia. auto.
  - intros t h Ht Hn. rewrite nth_error_window in Hn by lia. apply (Hbefore (s + t)%nat h); [lia|assumption].
Qed.

Lemma take_while_run : forall l rest k,
  Forall (fun h => hkey h = k) l -> Forall (fun h => hkey h <> k) rest ->
  take_while_key (l ++ rest) k = l.
Proof.
  induction l as [|h l IH]; intros rest k Hl Hr.
  - destruct rest as [|h r]; [reflexivity|]. inversion Hr as [|a b Hh Hr']; subst.
    cbn. apply N.eqb_neq in Hh. rewrite Hh. reflexivity.
  - inversion Hl as [|a b Hh Hl']; subst. cbn. rewrite N.eqb_refl. rewrite IH by assumption. reflexivity.
Qed.

(* where the records of key k start in the flat record array *)
Fixpoint pos (m : inmem) (k : N) : nat :=
  match m with
  | [] => 0%nat
  | (k', v) :: r => if k' <? k then (length v + pos r k)%nat else 0%nat
  end.

Lemma lookup_split : forall m k v, lookup m k = Some v -> exists m1 m2, m = m1 ++ (k, v) :: m2.
Proof.
  induction m as [|[k' v'] m IH]; cbn; intros k v Hl; [discriminate|].
  destruct (k' =? k) eqn:E.
  - apply N.eqb_eq in E. injection Hl as Hv. subst. exists [], m. reflexivity.
  - destruct (IH _ _ Hl) as (m1 & m2 & Hm). subst m. exists ((k', v') :: m1), m2. reflexivity.
Qed.

Lemma lookup_none_keys : forall m k, lookup m k = None -> Forall (fun kv => fst kv <> k) m.
Proof.
  induction m as [|[k1 v1] m IH]; cbn [BPTree.lookup]; intros k Hl; [constructor|].
  destruct (N.eqb_spec k1 k) as [E|E]; [discriminate|]. constructor; [exact E|apply IH; exact Hl].
Qed.

Lemma lookup_mid : forall m1 k v m2, wf (m1 ++ (k, v) :: m2) -> lookup (m1 ++ (k, v) :: m2) k = Some v.
Proof.
  intros m1 k v m2 Hw. destruct (wf_split_lt _ _ _ _ Hw) as [H1 _]. clear Hw.
  induction m1 as [|[k1 v1] m1 IH]; cbn.
  - rewrite N.eqb_refl. reflexivity.
  - inversion H1 as [|a b Hk H1']; subst. cbn in Hk.
    assert (E : (k1 =? k) = false) by (apply N.eqb_neq; lia). rewrite E. apply IH. assumption.
Qed.

Lemma pos_mid : forall m1 k v m2, wf (m1 ++ (k, v) :: m2) -> pos (m1 ++ (k, v) :: m2) k = length (flat m1).
Proof.
  intros m1 k v m2 Hw. destruct (wf_split_lt _ _ _ _ Hw) as [H1 _]. clear Hw.
  induction m1 as [|[k1 v1] m1 IH]; cbn [app pos].
  - rewrite N.ltb_irrefl. reflexivity.
  - inversion H1 as [|a b Hk H1']; subst. cbn in Hk.
    assert (E : (k1 <? k) = true) by (apply N.ltb_lt; lia). rewrite E. rewrite IH by assumption.
    rewrite flat_cons, app_length, rev_length. reflexivity.
Qed.

Lemma first_at_flat : forall m1 k v m2, wf (m1 ++ (k, v) :: m2) ->
  first_at (flat (m1 ++ (k, v) :: m2)) k (length (flat m1)) /\
  nth_error (flat (m1 ++ (k, v) :: m2)) (length (flat m1)) = get_latest_mem (m1 ++ (k, v) :: m2) k /\
  Some (take_while_key (skipn (length (flat m1)) (flat (m1 ++ (k, v) :: m2))) k)
    = get_all_mem (m1 ++ (k, v) :: m2) k.
Proof.
  intros m1 k v m2 Hw.
  pose proof (lookup_mid _ _ _ _ Hw) as Hl.
  destruct (wf_split_lt _ _ _ _ Hw) as [Hlt1 Hlt2].
  destruct (wf_app_inv _ _ Hw) as (Hw1 & Hw2 & _).
  apply wf_cons_inv in Hw2. destruct Hw2 as (Hne & Hk & _ & Hw2).
  unfold BPTree.get_latest_mem, BPTree.get_all_mem. rewrite Hl.
  rewrite flat_app, flat_cons.
  apply Forall_rev in Hk.
  destruct (rev v) as [|h t] eqn:Erev.
  { exfalso. apply Hne. rewrite <- (rev_involutive v), Erev. reflexivity. }
  assert (Hnth : nth_error (flat m1 ++ (h :: t) ++ flat m2) (length (flat m1)) = Some h).
  { rewrite nth_error_app2 by lia. rewrite Nat.sub_diag. reflexivity. }
  split; [|split].
  - split.
    + exists h. split; [assumption|]. exact (Forall_inv Hk).
    + intros i h' Hi Hn. rewrite nth_error_app1 in Hn by lia. apply nth_error_In in Hn.
      apply N.lt_neq. exact (flat_keys (fun x => x < k) m1 h' Hw1 Hlt1 Hn).
  - assumption.
  - rewrite skipn_app_exact. rewrite take_while_run; [reflexivity|assumption|].
    rewrite Forall_forall. intros h' Hn. apply N.neq_sym, N.lt_neq. exact (flat_keys (fun x => k < x) m2 h' Hw2 Hlt2 Hn).
Qed.

Definition latest_at (f : file H) (k lo : N) : option H :=
  let '(_, buf) := buf_recs f lo in
  match bsearch (S (length buf)) buf k 0 (Z.of_nat (length buf) - 1) with
  | None => None
  | Some i => nth_error buf (leftmost buf k i)
  end.

Definition all_at (f : file H) (k lo : N) : option (list H) :=
  let '(idx0, buf) := buf_recs f lo in
  match bsearch (S (length buf)) buf k 0 (Z.of_nat (length buf) - 1) with
  | None => None
  | Some i => Some (take_while_key (skipn (N.to_nat idx0 + leftmost buf k i)
                                          (firstn (N.to_nat (f_count f)) (recs f))) k)
  end.

Lemma leaf_lookup_absent : forall hdr_end m k lo,
  wf m -> lookup m k = None ->
  latest_at (serialize hdr_end m) k lo = None /\ all_at (serialize hdr_end m) k lo = None.
Proof.
  intros hdr_end m k lo Hw Hl.
  unfold latest_at, all_at, BPTree.buf_recs. rewrite recs_serialize.
  match goal with |- context [firstn ?n (skipn ?s (flat m))] => set (buf := firstn n (skipn s (flat m))) end.
  pose proof (bsearch_full buf k (ksorted_window _ _ _ (ksorted_flat m Hw))) as Hb.
  destruct (bsearch (S (length buf)) buf k 0 (Z.of_nat (length buf) - 1)) as [i|]; [|split; reflexivity].
  exfalso. destruct Hb as [h [Hn Hk]]. apply nth_error_In, In_window in Hn.
  exact (flat_keys (fun x => x <> k) m h Hw (lookup_none_keys m k Hl) Hn Hk).
Qed.

(* present key: any leaf offset whose B-byte buffer contains the first record of k *)
Lemma leaf_lookup_present : forall hdr_end m1 k v m2 start,
  let m := m1 ++ (k, v) :: m2 in
  let f := serialize hdr_end m in
  let lo := leaves_offset f + rhs * start in
  wf m -> 0 < rhs ->
  start <= N.of_nat (length (flat m1)) ->
  N.of_nat (length (flat m1)) < start + (N.min (file_size f - lo) B) / rhs ->
  latest_at f k lo = get_latest_mem m k /\ all_at f k lo = get_all_mem m k.
Proof.
  intros hdr_end m1 k v m2 start m f lo Hw Hrhs Hstart Hend.
  destruct (first_at_flat m1 k v m2 Hw) as (Hfirst & Hlatest & Hall). fold m in Hfirst, Hlatest, Hall.
  unfold latest_at, all_at, BPTree.buf_recs.
  replace (lo - leaves_offset f) with (start * rhs) by (unfold lo; lia). rewrite N.div_mul by lia.
  set (n := N.to_nat (N.min (file_size f - lo) B / rhs)).
  change (recs f) with (flat m). change (f_count f) with (count m).
  pose proof (first_at_window (flat m) k (length (flat m1)) (N.to_nat start) n Hfirst ltac:(lia)) as Hfw.
  destruct (search_first _ k _ (ksorted_window _ (N.to_nat start) n (ksorted_flat m Hw)) Hfw) as (i & Eb & El).
  rewrite Eb, El, nth_error_window by lia.
  replace (N.to_nat start + (length (flat m1) - N.to_nat start))%nat with (length (flat m1)) by lia.
  split; [assumption|]. rewrite firstn_count_flat. assumption.
Qed.

Lemma leaf_lookup_present_pos : forall hdr_end m k v start,
  wf m -> 0 < rhs -> lookup m k = Some v ->
  start <= N.of_nat (pos m k) ->
  N.of_nat (pos m k) <
    start + (N.min (file_size (serialize hdr_end m) - (leaves_offset (serialize hdr_end m) + rhs * start)) B) / rhs ->
  latest_at (serialize hdr_end m) k (leaves_offset (serialize hdr_end m) + rhs * start) = get_latest_mem m k /\
  all_at (serialize hdr_end m) k (leaves_offset (serialize hdr_end m) + rhs * start) = get_all_mem m k.
Proof.
  intros hdr_end m k v start Hw Hrhs Hl.
  destruct (lookup_split _ _ _ Hl) as (m1 & m2 & Hm). subst m.
  rewrite pos_mid by assumption. intros H1 H2.
  apply (leaf_lookup_present hdr_end m1 k v m2 start Hw Hrhs H1 H2).
Qed.

(* the bytes node n takes in the file *)
Definition nsz (n : node) : N := node_size (N.of_nat (length (nkeys n))).

Lemma node_size_pos x : 0 < node_size x.
Proof. unfold BPTree.node_size. lia. Qed.

Lemma nodes_size_acc : forall ns a,
  fold_left (fun a n => a + node_size (N.of_nat (length (nkeys n)))) ns a = a + nodes_size ns.
Proof.
  unfold BPTree.nodes_size.
  induction ns as [|n ns IH]; intros a; cbn [fold_left].
  - lia.
  - rewrite IH. rewrite (IH (0 + _)). lia.
Qed.

Lemma nodes_size_nil : nodes_size [] = 0.
Proof. reflexivity. Qed.

Lemma nodes_size_cons n ns : nodes_size (n :: ns) = nsz n + nodes_size ns.
Proof.
  unfold BPTree.nodes_size at 1. cbn [fold_left]. rewrite nodes_size_acc. unfold nsz. lia.
Qed.

Lemma nodes_size_app a b : nodes_size (a ++ b) = nodes_size a + nodes_size b.
Proof.
  induction a as [|n a IH]; cbn [app].
  - rewrite nodes_size_nil. lia.
  - rewrite !nodes_size_cons, IH. lia.
Qed.

Lemma node_at_aux_mid : forall pre n post cur,
  node_at_aux (pre ++ n :: post) cur (cur + nodes_size pre) = Some n.
Proof.
  induction pre as [|p pre IH]; intros n post cur; cbn [app BPTree.node_at_aux].
  - rewrite nodes_size_nil. replace (cur + 0) with cur by lia. rewrite N.eqb_refl. reflexivity.
  - rewrite nodes_size_cons. fold (nsz p).
    pose proof (node_size_pos _ : 0 < nsz p) as Hpos.
    assert (E : (cur =? cur + (nsz p + nodes_size pre)) = false) by (apply N.eqb_neq; lia).
    rewrite E. replace (cur + (nsz p + nodes_size pre)) with (cur + nsz p + nodes_size pre) by lia.
    apply IH.
Qed.

Lemma node_at_mid : forall (f : file H) pre n post,
  nodes f = pre ++ n :: post -> nsz n <= B ->
  tree_offset f + nodes_size pre + B <= file_size f ->
  node_at f (tree_offset f + nodes_size pre) = Some n.
Proof.
  intros f pre n post Hn Hsz Hend. unfold BPTree.node_at. rewrite Hn, node_at_aux_mid.
  fold (nsz n). apply N.leb_le in Hsz. apply N.leb_le in Hend. rewrite Hsz, Hend.
  rewrite orb_true_r. reflexivity.
Qed.

(* the entry followed for k (key_offset_serialized): the last one whose key is <= k, or the first *)
Definition cntk (ks : list N) (k : N) : nat := length (filter (fun x => x <=? k) ks).
Definition sel (arr : list (N * N)) (k : N) : N * N := nth (cntk (map fst (tl arr)) k) arr (0, 0).

Lemma cntk_cons x ks k : cntk (x :: ks) k = if x <=? k then S (cntk ks k) else cntk ks k.
Proof. unfold cntk. cbn [filter]. destruct (x <=? k); reflexivity. Qed.

Lemma cntk_le ks k : (cntk ks k <= length ks)%nat.
Proof. induction ks as [|x ks IH]; [cbn; lia|]. rewrite cntk_cons. destruct (x <=? k); cbn [length]; lia. Qed.

Lemma cntk_app a b k : cntk (a ++ b) k = (cntk a k + cntk b k)%nat.
Proof. unfold cntk. rewrite filter_app, app_length. reflexivity. Qed.

Lemma cntk_all ks k : Forall (fun x => x <= k) ks -> cntk ks k = length ks.
Proof.
  induction 1 as [|x ks Hx Hks IH]; [reflexivity|].
  apply N.leb_le in Hx. rewrite cntk_cons, Hx, IH. reflexivity.
Qed.

Lemma cntk_none ks k : Forall (fun x => k < x) ks -> cntk ks k = 0%nat.
Proof.
  induction 1 as [|x ks Hx Hks IH]; [reflexivity|].
  apply N.leb_gt in Hx. rewrite cntk_cons, Hx. assumption.
Qed.

Definition esorted (arr : list (N * N)) : Prop := StronglySorted (fun a b => fst a < fst b) arr.

(* the least key of a group of entries *)
Definition hdk (g : list (N * N)) : N := fst (hd (0, 0) g).

Lemma esorted_hdk_le l x : esorted l -> In x l -> hdk l <= fst x.
Proof.
  intros Hs Hin. destruct l as [|e l]; [contradiction|]. unfold hdk. cbn [hd].
  apply StronglySorted_inv in Hs. destruct Hs as [_ Hf]. rewrite Forall_forall in Hf.
  destruct Hin as [Heq|Hin]; [subst; lia|]. specialize (Hf x Hin). cbn beta in Hf. lia.
Qed.

Lemma sel_app_r l1 l2 k :
  l2 <> [] -> Forall (fun e => fst e <= k) l1 -> hdk l2 <= k ->
  sel (l1 ++ l2) k = sel l2 k.
Proof.
  intros H2 Hall He2. destruct l1 as [|e1 l1]; [reflexivity|]. destruct l2 as [|e2 l2]; [congruence|].
  unfold hdk in He2. cbn [hd] in He2. inversion Hall as [|a b He1 Hall']; subst.
  unfold sel. cbn [app tl]. rewrite map_app, cntk_app. cbn [map].
  rewrite cntk_all by (rewrite Forall_map; assumption). rewrite map_length.
  apply N.leb_le in He2. rewrite cntk_cons, He2.
  change (e1 :: l1 ++ e2 :: l2) with ((e1 :: l1) ++ e2 :: l2).
  rewrite app_nth2 by (cbn [length]; lia).
  replace (length l1 + S (cntk (map fst l2) k) - length (e1 :: l1))%nat with (cntk (map fst l2) k)
    by (cbn [length]; lia).
  reflexivity.
Qed.

Lemma sel_app_l l1 l2 k :
  l1 <> [] -> Forall (fun e => k < fst e) l2 -> sel (l1 ++ l2) k = sel l1 k.
Proof.
  intros Hne Hall. destruct l1 as [|e1 l1]; [congruence|].
  unfold sel. cbn [app tl]. rewrite map_app, cntk_app.
  rewrite (cntk_none (map fst l2)) by (rewrite Forall_map; assumption).
  rewrite Nat.add_0_r.
  change (e1 :: l1 ++ l2) with ((e1 :: l1) ++ l2).
  apply app_nth1. pose proof (cntk_le (map fst l1) k) as Hle. rewrite map_length in Hle. cbn [length]. lia.
Qed.

Lemma sel_app l1 l2 k : l1 <> [] -> l2 <> [] -> esorted (l1 ++ l2) ->
  sel (l1 ++ l2) k = if hdk l2 <=? k then sel l2 k else sel l1 k.
Proof.
  intros H1 H2 Hs. apply StronglySorted_app_inv in Hs. destruct Hs as (_ & Hs2 & Hlt).
  destruct (N.leb_spec (hdk l2) k) as [E|E].
  - apply sel_app_r; [assumption| |exact E].
    apply Forall_forall. intros x Hx. destruct l2 as [|e2 l2]; [congruence|].
    specialize (Hlt x e2 Hx (or_introl eq_refl)). cbn beta in Hlt. unfold hdk in E. cbn [hd] in E. lia.
  - apply sel_app_l; [assumption|]. apply Forall_forall. intros x Hx.
    pose proof (esorted_hdk_le _ _ Hs2 Hx). lia.
Qed.

Lemma hd_in_concat (g : list (N * N)) gs : In g gs -> g <> [] -> In (hd (0, 0) g) (concat gs).
Proof.
  intros Hin Hg. apply in_concat. exists g. split; [assumption|]. destruct g; [congruence|left; reflexivity].
Qed.

(* the entry selected in the concatenation is the entry selected inside the group selected by the
   groups' minimal keys *)
Lemma sel_groups : forall gs k,
  Forall (fun g => g <> []) gs -> esorted (concat gs) ->
  sel (nth (cntk (tl (map hdk gs)) k) gs []) k = sel (concat gs) k.
Proof.
  induction gs as [|g gs IH]; intros k Hall Hs; [reflexivity|].
  inversion Hall as [|a b Hg Hall']; subst.
  destruct gs as [|g1 gs].
  - cbn. rewrite app_nil_r. reflexivity.
  - assert (Hg1 : g1 <> []) by exact (Forall_inv Hall').
    assert (Hc : concat (g1 :: gs) <> []) by (cbn [concat]; destruct g1; [congruence|discriminate]).
    assert (Hh : hdk (concat (g1 :: gs)) = hdk g1) by (cbn [concat]; destruct g1; [congruence|reflexivity]).
    change (concat (g :: g1 :: gs)) with (g ++ concat (g1 :: gs)) in *.
    rewrite (sel_app g _ k Hg Hc Hs), Hh.
    apply StronglySorted_app_inv in Hs. destruct Hs as (_ & Hsr & _).
    change (tl (map hdk (g :: g1 :: gs))) with (hdk g1 :: tl (map hdk (g1 :: gs))).
    rewrite cntk_cons. destruct (N.leb_spec (hdk g1) k) as [E|E].
    + cbn [nth]. apply IH; assumption.
    + (* every later group starts above k as well *)
      rewrite cntk_none; [reflexivity|]. change (tl (map hdk (g1 :: gs))) with (map hdk gs).
      apply Forall_map, Forall_forall. intros g' Hin.
      assert (Hg' : g' <> []). { rewrite Forall_forall in Hall'. apply Hall'. right. assumption. }
      pose proof (esorted_hdk_le _ _ Hsr (hd_in_concat g' (g1 :: gs) (or_intror Hin) Hg')) as Hle.
      rewrite Hh in Hle. change (hdk g') with (fst (hd (0, 0) g')). lia.
Qed.

(* the node write_layer makes of the group g *)
Definition mknode (base : N) (g : list (N * N)) : node :=
  {| nkeys := map fst (tl g); noffs := map (fun kv => snd kv + base) g |}.

Lemma child_mknode base g k : g <> [] -> child (mknode base g) k = snd (sel g k) + base.
Proof.
  intros Hg. unfold BPTree.child, mknode, sel. cbn [nkeys noffs]. fold (cntk (map fst (tl g)) k).
  assert (Hlt : (cntk (map fst (tl g)) k < length g)%nat).
  { pose proof (cntk_le (map fst (tl g)) k) as Hle. rewrite map_length in Hle.
    destruct g; [congruence|]. cbn [tl length] in *. lia. }
  transitivity (nth (cntk (map fst (tl g)) k) (map (fun kv : N * N => snd kv + base) g)
                    ((fun kv : N * N => snd kv + base) (0, 0))).
  { apply nth_indep. rewrite map_length. assumption. }
  apply (map_nth (fun kv : N * N => snd kv + base) g (0, 0)).
Qed.

(* the bytes that node takes *)
Definition gsz (g : list (N * N)) : N := node_size (N.of_nat (length g) - 1).

Lemma nsz_mknode base g : nsz (mknode base g) = gsz g.
Proof.
  unfold nsz, gsz, mknode. cbn [nkeys]. rewrite map_length. f_equal. destruct g; cbn [tl length]; lia.
Qed.

Lemma amount_bounds : 1 <= min_amount <= max_amount /\ (2 <= max_amount -> min_amount + 1 <= max_amount).
Proof.
  unfold BPTree.min_amount, BPTree.max_amount. set (q := (B - 8 - 8) / (ksz + 8)).
  replace (q + 1 - 1) with q by lia.
  assert (Hq : q / 2 <= q) by (apply N.div_le_upper_bound; lia).
  assert (Hq2 : 1 <= q -> q / 2 < q) by (intros; apply N.div_lt_upper_bound; lia).
  (* lia reads a quotient of N as an unknown integer; under a name of type N it is known not to be negative *)
  set (h := q / 2) in *. clearbody h q. lia.
Qed.

(* what the tree proofs use of the way a layer is cut into nodes: the groups partition the layer, none is
   empty or larger than a node may be, and (fan-out at least two) there are fewer groups than entries *)
Definition grouping (arr : list (N * N)) (gs : list (list (N * N))) : Prop :=
  concat gs = arr /\ gs <> [] /\
  Forall (fun g => g <> [] /\ N.of_nat (length g) <= max_amount) gs /\
  (length gs <= length arr)%nat /\
  (2 <= max_amount -> (2 <= length arr)%nat -> (length gs < length arr)%nat).

Lemma groups_grouping : forall fuel arr,
  (length arr <= fuel)%nat -> arr <> [] -> grouping arr (groups fuel arr).
Proof.
  destruct amount_bounds as ((Hm1 & Hm2) & Hm3).
  induction fuel as [|f IH]; intros arr Hlen Hne.
  - apply ne_length in Hne. lia.
  - cbn [BPTree.groups]. destruct (N.ltb_spec max_amount (N.of_nat (length arr))) as [E|E].
    2:{ apply ne_length in Hne. repeat split; cbn [concat length]; try lia.
        - apply app_nil_r.
        - discriminate.
        - constructor; [|constructor]. split; [apply ne_length|]; assumption. }
    set (a := N.to_nat (N.min max_amount (N.of_nat (length arr) - min_amount))).
    assert (Ha : (1 <= a < length arr)%nat /\ N.of_nat a <= max_amount /\ (2 <= max_amount -> (2 <= a)%nat)).
    { subst a. lia. }
    clearbody a. destruct Ha as (Ha1 & Ha2 & Ha3).
    destruct (IH (skipn a arr)) as (Hc & Hn & Hall & Hl1 & Hl2).
    { rewrite skipn_length. lia. }
    { apply ne_length. rewrite skipn_length. lia. }
    rewrite skipn_length in Hl1, Hl2.
    repeat split; cbn [concat length]; try lia.
    + rewrite Hc. apply firstn_skipn.
    + discriminate.
    + constructor; [|assumption]. split; [apply ne_length|]; rewrite firstn_length; lia.
Qed.

Lemma mk_groups_grouping arr : arr <> [] -> grouping arr (mk_groups arr).
Proof. intros Hne. apply groups_grouping; [apply Nat.le_refl|assumption]. Qed.

(* what next_layer computes from the groups gs of a layer: the entries of the layer above (nl: for each group its
   least key and where its node starts, counted from off) and the bytes the nodes of gs take together (lsz) *)
Fixpoint nl (off : N) (gs : list (list (N * N))) : list (N * N) :=
  match gs with [] => [] | g :: r => (hdk g, off) :: nl (off + gsz g) r end.
Fixpoint lsz (gs : list (list (N * N))) : N :=
  match gs with [] => 0 | g :: r => gsz g + lsz r end.

Lemma next_layer_fold : forall gs acc off,
  fold_left (fun '(acc, off) g => (acc ++ [(fst (hd (0, 0) g), off)], off + node_size (N.of_nat (length g) - 1)))
            gs (acc, off) = (acc ++ nl off gs, off + lsz gs).
Proof.
  induction gs as [|g gs IH]; intros acc off; cbn [fold_left nl lsz].
  - rewrite app_nil_r. f_equal. lia.
  - rewrite IH. rewrite <- app_assoc. cbn [app]. unfold hdk, gsz. f_equal. lia.
Qed.

Lemma next_layer_eq arr : next_layer arr = (nl 0 (mk_groups arr), lsz (mk_groups arr)).
Proof. unfold BPTree.next_layer. rewrite next_layer_fold. reflexivity. Qed.

Lemma nodes_size_mknodes base gs : nodes_size (map (mknode base) gs) = lsz gs.
Proof.
  induction gs as [|g gs IH]; cbn [map lsz]; [reflexivity|].
  rewrite nodes_size_cons, nsz_mknode, IH. reflexivity.
Qed.

Lemma nl_length : forall gs off, length (nl off gs) = length gs.
Proof. induction gs as [|g gs IH]; intros off; cbn; [reflexivity|]. rewrite IH. reflexivity. Qed.

Lemma nl_keys : forall gs off, map fst (nl off gs) = map hdk gs.
Proof. induction gs as [|g gs IH]; intros off; cbn; [reflexivity|]. rewrite IH. reflexivity. Qed.

Lemma nl_nth : forall gs off j, (j < length gs)%nat ->
  snd (nth j (nl off gs) (0, 0)) = off + lsz (firstn j gs).
Proof.
  induction gs as [|g gs IH]; intros off j Hj; cbn [length] in Hj; [lia|].
  destruct j as [|j]; cbn [nl nth firstn lsz snd].
  - lia.
  - rewrite IH by lia. lia.
Qed.

Lemma lsz_app a b : lsz (a ++ b) = lsz a + lsz b.
Proof. induction a as [|g a IH]; cbn [app lsz]; [lia|]. rewrite IH. lia. Qed.

(* heads of consecutive non-empty groups of a sorted list are sorted *)
Lemma esorted_heads : forall gs off, Forall (fun g => g <> []) gs -> esorted (concat gs) -> esorted (nl off gs).
Proof.
  induction gs as [|g gs IH]; intros off Hall Hs; cbn [nl]; [constructor|].
  inversion Hall as [|a b Hg Hall']; subst. cbn [concat] in Hs.
  apply StronglySorted_app_inv in Hs. destruct Hs as (_ & Hsr & Hlt).
  constructor; [apply IH; assumption|].
  cbn [fst]. rewrite <- Forall_map, nl_keys, Forall_map. apply Forall_forall. intros g' Hin.
  assert (Hg' : g' <> []). { rewrite Forall_forall in Hall'. apply Hall'. assumption. }
  assert (Hhd : In (hd (0, 0) g) g) by (destruct g; [congruence|left; reflexivity]).
  apply (Hlt _ _ Hhd (hd_in_concat g' gs Hin Hg')).
Qed.

Lemma build_tree_small : forall fuel arr to, (length arr <= 1)%nat -> build_tree fuel arr to [] = [].
Proof. intros [|f] [|a [|b arr]] to Hl; cbn [length] in Hl; try reflexivity; lia. Qed.

Lemma build_tree_step : forall f arr to, (2 <= length arr)%nat ->
  build_tree (S f) arr to [] =
  build_tree f (nl 0 (mk_groups arr)) to [] ++
  map (mknode (to + lsz (mk_groups arr) + nodes_size (build_tree f (nl 0 (mk_groups arr)) to [])))
      (mk_groups arr).
Proof.
  intros f [|a [|b arr]] to Hl; cbn [length] in Hl; try lia.
  cbn [BPTree.build_tree]. rewrite next_layer_eq. reflexivity.
Qed.

Lemma find_leaf_node : forall fu (f : file H) k off n,
  off < leaves_offset f -> node_at f off = Some n ->
  find_leaf (S fu) f k off = find_leaf fu f k (child n k).
Proof.
  intros fu f k off n Hlt Hn. cbn [BPTree.find_leaf]. apply N.ltb_lt in Hlt. rewrite Hlt, Hn. reflexivity.
Qed.

Lemma find_leaf_done : forall fu (f : file H) k off,
  leaves_offset f <= off -> find_leaf fu f k off = Some off.
Proof.
  intros fu f k off Hle. apply N.ltb_ge in Hle. destruct fu; cbn [BPTree.find_leaf]; rewrite Hle; reflexivity.
Qed.

(* a single entry: no node is written, the entry is the leaf *)
Lemma descent_single fuel arr (f : file H) k : length arr = 1%nat -> snd (hd (0, 0) arr) = 0 ->
  forall fuel2,
    find_leaf fuel2 f k (tree_offset f) =
    find_leaf fuel2 f k (tree_offset f + nodes_size (build_tree fuel arr (tree_offset f) []) + snd (sel arr k)).
Proof.
  intros Hl Hhd fuel2. rewrite build_tree_small by lia.
  destruct arr as [|a [|b arr]]; try discriminate Hl.
  cbn in Hhd. unfold sel. cbn. rewrite Hhd.
  replace (tree_offset f + 0 + 0) with (tree_offset f) by lia. reflexivity.
Qed.

Section Tree.
Hypothesis Hmax : 2 <= max_amount.

Lemma gsz_le_B g : N.of_nat (length g) <= max_amount -> gsz g <= B.
Proof.
  intros Hg. unfold gsz, BPTree.node_size.
  pose proof Hmax as Hq1. unfold BPTree.max_amount in Hg, Hq1.
  set (q := (B - 8 - 8) / (ksz + 8)) in *.
  set (x := N.of_nat (length g) - 1).
  assert (Hq : (ksz + 8) * q <= B - 8 - 8) by (apply N.mul_div_le; lia).
  clearbody q.
  (* a node of one key fits, so B - 8 - 8 is not a subtraction cut off at 0 *)
  assert (H1 : (ksz + 8) * 1 <= (ksz + 8) * q) by (apply N.mul_le_mono_l; lia).
  assert (Hm : (ksz + 8) * x <= (ksz + 8) * q) by (apply N.mul_le_mono_l; lia).
  lia.
Qed.

(* one written layer: the entry selected in the layer above points at the node of the group that holds
   the entry selected in this layer, and that node's child for k is this entry's offset *)
Lemma layer_step (f : file H) up gs rest k :
  let base := tree_offset f + lsz gs + nodes_size up in
  nodes f = up ++ map (mknode base) gs ++ rest ->
  gs <> [] -> Forall (fun g => g <> [] /\ N.of_nat (length g) <= max_amount) gs -> esorted (concat gs) ->
  tree_offset f + (nodes_size up + lsz gs) <= leaves_offset f -> leaves_offset f + B <= file_size f ->
  forall fuel2,
    find_leaf (S fuel2) f k (tree_offset f + nodes_size up + snd (sel (nl 0 gs) k)) =
    find_leaf fuel2 f k (tree_offset f + (nodes_size up + lsz gs) + snd (sel (concat gs) k)).
Proof.
  intros base Hnodes Hgne Hgall Hs Hlo Hbig fuel2.
  set (j := cntk (tl (map hdk gs)) k).
  assert (Hj : (j < length gs)%nat).
  { pose proof (cntk_le (tl (map hdk gs)) k) as Hle. fold j in Hle.
    destruct gs as [|g0 gs']; [congruence|]. cbn [map tl length] in *. rewrite map_length in Hle. lia. }
  assert (Hseln : snd (sel (nl 0 gs) k) = lsz (firstn j gs)).
  { unfold sel. rewrite map_tl_, nl_keys. fold j. rewrite nl_nth by exact Hj. lia. }
  set (g := nth j gs []).
  pose proof (split_nth gs j [] Hj) as Hsplit. fold g in Hsplit.
  assert (Hin : lsz gs = lsz (firstn j gs) + (gsz g + lsz (skipn (S j) gs))).
  { rewrite Hsplit at 1. apply lsz_app. }
  pose proof (node_size_pos _ : 0 < gsz g) as Hgpos.
  rewrite Forall_forall in Hgall. destruct (Hgall g (nth_In gs [] Hj)) as [Hg1 Hg2].
  rewrite Hseln, (find_leaf_node fuel2 f k _ (mknode base g)).
  - rewrite child_mknode by assumption. unfold g, j. rewrite sel_groups; [f_equal; unfold base; lia| |assumption].
    apply Forall_forall. intros g' Hg'. apply (Hgall g' Hg').
  - lia.
  - replace (tree_offset f + nodes_size up + lsz (firstn j gs))
      with (tree_offset f + nodes_size (up ++ map (mknode base) (firstn j gs)))
      by (rewrite nodes_size_app, nodes_size_mknodes; lia).
    apply (node_at_mid f _ _ (map (mknode base) (skipn (S j) gs) ++ rest)).
    + rewrite Hnodes. rewrite Hsplit at 1. rewrite map_app. cbn [map]. rewrite <- !app_assoc. reflexivity.
    + rewrite nsz_mknode. apply gsz_le_B. assumption.
    + rewrite nodes_size_app, nodes_size_mknodes. lia.
Qed.

Lemma descent : forall fuel arr (f : file H) rest k,
  (1 <= length arr)%nat -> (length arr <= S fuel)%nat ->
  esorted arr -> snd (hd (0, 0) arr) = 0 ->
  nodes f = build_tree fuel arr (tree_offset f) [] ++ rest ->
  tree_offset f + nodes_size (build_tree fuel arr (tree_offset f) []) <= leaves_offset f ->
  (build_tree fuel arr (tree_offset f) [] <> [] -> leaves_offset f + B <= file_size f) ->
  exists d, (d <= length (build_tree fuel arr (tree_offset f) []))%nat /\
    forall fuel2,
      find_leaf (d + fuel2) f k (tree_offset f) =
      find_leaf fuel2 f k
        (tree_offset f + nodes_size (build_tree fuel arr (tree_offset f) []) + snd (sel arr k)).
Proof.
  induction fuel as [|fu IH]; intros arr f rest k Hlen1 Hlen2 Hs Hhd Hnodes Hlo Hbig.
  - exists 0%nat. split; [lia|]. apply descent_single; [lia|assumption].
  - destruct (Nat.eq_dec (length arr) 1) as [Hone|Hmany].
    { exists 0%nat. split; [lia|]. apply descent_single; assumption. }
    rewrite build_tree_step in * by lia.
    destruct (mk_groups_grouping arr ltac:(apply ne_length; lia)) as (Hgcat & Hgne & Hgall & _ & Hgcnt).
    specialize (Hgcnt Hmax ltac:(lia)).
    set (gs := mk_groups arr) in *.
    set (nn := nl 0 gs) in *.
    set (up := build_tree fu nn (tree_offset f) []) in *.
    set (base := tree_offset f + lsz gs + nodes_size up) in *.
    rewrite nodes_size_app, nodes_size_mknodes in Hlo |- *.
    rewrite <- app_assoc in Hnodes.
    assert (Hbig' : leaves_offset f + B <= file_size f).
    { apply Hbig. intros Heq. apply app_eq_nil in Heq. destruct Heq as [_ HW]. apply map_eq_nil in HW. contradiction. }
    destruct (IH nn f (map (mknode base) gs ++ rest) k) as (d' & Hd' & Hfl).
    { unfold nn. rewrite nl_length. apply ne_length. assumption. }
    { unfold nn. rewrite nl_length. lia. }
    { apply esorted_heads; [|rewrite Hgcat; assumption]. eapply Forall_impl; [|exact Hgall]. cbn. tauto. }
    { unfold nn. destruct gs; [congruence|reflexivity]. }
    { assumption. }
    { fold up. lia. }
    { intros _. assumption. }
    fold up in Hd', Hfl.
    exists (S d'). split.
    { rewrite app_length, map_length. apply ne_length in Hgne. lia. }
    intros fuel2. replace (S d' + fuel2)%nat with (d' + S fuel2)%nat by lia.
    rewrite Hfl, <- Hgcat. apply (layer_step f up gs rest k); try assumption. rewrite Hgcat. assumption.
Qed.

End Tree.

(* the leaves opened while the entries of m are written from offset off on, with rem bytes left in the
   current leaf *)
Fixpoint more_leaves (off rem : N) (m : inmem) : list (N * N) :=
  match m with
  | [] => []
  | (k, v) :: m' =>
    if rem <? rhs
    then (k, off) :: more_leaves (off + N.of_nat (length v) * rhs) (B - N.of_nat (length v) * rhs) m'
    else more_leaves (off + N.of_nat (length v) * rhs) (rem - N.of_nat (length v) * rhs) m'
  end.

Lemma leaf_step_eq off rem mk mo acc k (v : list H) :
  leaf_step (off, rem, mk, mo, acc) (k, v) =
  if rem <? rhs
  then (off + N.of_nat (length v) * rhs, B - N.of_nat (length v) * rhs, k, off, acc ++ [(mk, mo)])
  else (off + N.of_nat (length v) * rhs, rem - N.of_nat (length v) * rhs, mk, mo, acc).
Proof. unfold BPTree.leaf_step. destruct (rem <? rhs); reflexivity. Qed.

Lemma leaves_fold : forall m off rem mk mo acc,
  (let '(_, _, mk', mo', acc') := fold_left leaf_step m (off, rem, mk, mo, acc) in acc' ++ [(mk', mo')])
  = acc ++ (mk, mo) :: more_leaves off rem m.
Proof.
  induction m as [|[k v] m IH]; intros off rem mk mo acc; cbn [fold_left more_leaves].
  - reflexivity.
  - rewrite leaf_step_eq. destruct (rem <? rhs).
    + rewrite IH. rewrite <- app_assoc. reflexivity.
    + apply IH.
Qed.

Lemma leaves_cons k0 v0 m : rhs <= B ->
  leaves ((k0, v0) :: m) =
  (k0, 0) :: more_leaves (N.of_nat (length v0) * rhs) (B - N.of_nat (length v0) * rhs) m.
Proof.
  intros HB. unfold BPTree.leaves. rewrite leaves_fold. cbn [app more_leaves].
  assert (E : (B <? rhs) = false) by (apply N.ltb_ge; assumption). rewrite E.
  replace (0 + N.of_nat (length v0) * rhs) with (N.of_nat (length v0) * rhs) by lia. reflexivity.
Qed.

Lemma more_leaves_keys : forall (P : N -> Prop) m off rem,
  Forall (fun kv => P (fst kv)) m -> Forall (fun e => P (fst e)) (more_leaves off rem m).
Proof.
  intros P. induction m as [|[k v] m IH]; intros off rem Hall; cbn [more_leaves]; [constructor|].
  inversion Hall as [|x l Hk Hall']; subst. cbn [fst] in Hk.
  destruct (rem <? rhs).
  - constructor; [exact Hk|]. apply IH. assumption.
  - apply IH. assumption.
Qed.

Lemma more_leaves_length : forall m off rem, (length (more_leaves off rem m) <= length m)%nat.
Proof.
  induction m as [|[k v] m IH]; intros off rem; cbn [more_leaves length]; [lia|].
  destruct (rem <? rhs); cbn [length].
  - apply le_n_S. apply IH.
  - apply Nat.le_le_succ_r. apply IH.
Qed.

Lemma more_leaves_sorted : forall m off rem,
  StronglySorted (fun a b : N * list H => fst a < fst b) m -> esorted (more_leaves off rem m).
Proof.
  induction m as [|[k v] m IH]; intros off rem Hs; cbn [more_leaves]; [constructor|].
  apply StronglySorted_inv in Hs. destruct Hs as [Hs Hk].
  destruct (rem <? rhs); [|apply IH; assumption].
  constructor; [apply IH; assumption|].
  apply (more_leaves_keys (fun x => k < x)). exact Hk.
Qed.

Lemma more_leaves_big : forall m off rem,
  wf m -> more_leaves off rem m <> [] -> rem < N.of_nat (length (flat m)) * rhs.
Proof.
  induction m as [|[k v] m IH]; intros off rem Hw Hmore; cbn [more_leaves] in Hmore; [congruence|].
  apply wf_cons_inv in Hw. destruct Hw as (Hv & _ & _ & Hw). apply ne_length in Hv.
  rewrite flat_cons, app_length, rev_length, Nat2N.inj_add, N.mul_add_distr_r.
  destruct (rem <? rhs) eqn:E.
  - apply N.ltb_lt in E.
    assert (Hmul : 1 * rhs <= N.of_nat (length v) * rhs) by (apply N.mul_le_mono_r; lia). lia.
  - specialize (IH _ _ Hw Hmore). lia.
Qed.

Lemma more_leaves_sel_low e m off rem k :
  Forall (fun kv => k < fst kv) m -> sel (e :: more_leaves off rem m) k = e.
Proof.
  intros Hall. apply (sel_app_l [e]); [discriminate|]. apply (more_leaves_keys (fun x => k < x)). assumption.
Qed.

Lemma sel_skip e e' l k : fst e <= k -> fst e' <= k -> sel (e :: e' :: l) k = sel (e' :: l) k.
Proof.
  intros He He'. apply (sel_app_r [e] (e' :: l)); [discriminate| |exact He'].
  constructor; [assumption|constructor].
Qed.

(* where the writer stands: off bytes are written, e is the leaf it is filling and rem what is left of
   that leaf's block; offsets are whole numbers of records *)
Definition packing (off rem : N) (e : N * N) : Prop :=
  exists c cm, off = c * rhs /\ snd e = cm * rhs /\ snd e <= off /\ rem = snd e + B - off.

Lemma packing_open off rem e k n : packing off rem e -> packing (off + n * rhs) (B - n * rhs) (k, off).
Proof. intros (c & _ & Ho & _). exists (c + n), c. cbn [snd]. repeat split; lia. Qed.

Lemma packing_stay off rem e n : packing off rem e -> packing (off + n * rhs) (rem - n * rhs) e.
Proof. intros (c & cm & Ho & He & Hle & Hr). exists (c + n), cm. repeat split; lia. Qed.

(* the leaf selected for a present key starts at a record boundary at or before the first record of
   the key, and that record lies inside the first B bytes of the leaf: a leaf is left as soon as less
   than a record fits *)
Lemma more_leaves_sel : forall m1 k v m2 off rem e,
  Forall (fun kv => fst kv < k) m1 -> Forall (fun kv => k < fst kv) m2 -> fst e <= k -> rhs <= B -> packing off rem e ->
  exists ki s, sel (e :: more_leaves off rem (m1 ++ (k, v) :: m2)) k = (ki, s * rhs) /\
     s * rhs <= off + N.of_nat (length (flat m1)) * rhs /\
     off + N.of_nat (length (flat m1)) * rhs + rhs <= s * rhs + B.
Proof.
  induction m1 as [|[k1 v1] m1 IH]; intros k v m2 off rem e Hbelow Hlow He HB Hp; cbn [app more_leaves].
  - change (length (flat [])) with 0%nat. destruct Hp as (c & cm & Ho & Hmo & Hle & Hr).
    destruct (rem <? rhs) eqn:E.
    + rewrite sel_skip by (cbn [fst]; lia). rewrite more_leaves_sel_low by assumption.
      exists k, c. rewrite Ho. split; [reflexivity|]. lia.
    + apply N.ltb_ge in E. rewrite more_leaves_sel_low by assumption.
      destruct e as [mk mo]. cbn [snd] in *. exists mk, cm. rewrite Hmo. split; [reflexivity|]. lia.
  - inversion Hbelow as [|x l Hk1k Hbelow']; subst x l. cbn [fst] in Hk1k.
    rewrite flat_cons, app_length, rev_length, Nat2N.inj_add, N.mul_add_distr_r, !N.add_assoc.
    destruct (rem <? rhs).
    + rewrite sel_skip by (cbn [fst]; lia).
      apply IH; [assumption|assumption|cbn [fst]; lia|assumption|apply (packing_open off rem e); assumption].
    + apply IH; [assumption|assumption|assumption|assumption|apply packing_stay; assumption].
Qed.

Lemma max_amount_ge2 : ksz + 24 <= B -> 2 <= max_amount.
Proof.
  intros HB. unfold BPTree.max_amount.
  assert (Hq : 1 <= (B - 8 - 8) / (ksz + 8)) by (apply N.div_le_lower_bound; lia).
  set (q := (B - 8 - 8) / (ksz + 8)) in *. clearbody q. lia.
Qed.

Lemma leaves_shape : forall m, m <> [] -> wf m -> rhs <= B ->
  (1 <= length (leaves m) <= length m)%nat /\
  esorted (leaves m) /\
  snd (hd (0, 0) (leaves m)) = 0 /\
  ((2 <= length (leaves m))%nat -> B < N.of_nat (length (flat m)) * rhs).
Proof.
  intros [|[k0 v0] m] Hne Hw HB; [congruence|]. clear Hne.
  apply wf_cons_inv in Hw. destruct Hw as (_ & _ & Hlt & Hw).
  rewrite leaves_cons by assumption.
  split; [|split; [|split]].
  - pose proof (more_leaves_length m (N.of_nat (length v0) * rhs) (B - N.of_nat (length v0) * rhs)) as Hl.
    cbn [length]. lia.
  - constructor.
    + apply more_leaves_sorted. exact (proj1 Hw).
    + apply (more_leaves_keys (fun x => k0 < x)). assumption.
  - reflexivity.
  - intros Hlen. cbn [length] in Hlen.
    assert (Hmore : more_leaves (N.of_nat (length v0) * rhs) (B - N.of_nat (length v0) * rhs) m <> [])
      by (apply ne_length; lia).
    pose proof (more_leaves_big m _ _ Hw Hmore) as Hbig.
    rewrite flat_cons, app_length, rev_length, Nat2N.inj_add, N.mul_add_distr_r. lia.
Qed.

Lemma leaves_sel : forall m1 k v m2,
  wf (m1 ++ (k, v) :: m2) -> 0 < rhs -> rhs <= B ->
  exists ki s, sel (leaves (m1 ++ (k, v) :: m2)) k = (ki, s * rhs) /\
     s <= N.of_nat (length (flat m1)) /\
     N.of_nat (length (flat m1)) * rhs + rhs <= s * rhs + B.
Proof.
  intros m1 k v m2 Hw Hrhs HB.
  destruct (wf_split_lt m1 k v m2 Hw) as [Hbelow Hlow].
  destruct m1 as [|[k0 v0] m1]; cbn [app] in *; rewrite leaves_cons by assumption.
  - exists k, 0. rewrite more_leaves_sel_low by assumption. split; [f_equal; lia|].
    change (length (flat [])) with 0%nat. split; lia.
  - pose proof (Forall_inv Hbelow) as Hk0. cbn [fst] in Hk0.
    destruct (more_leaves_sel m1 k v m2 (N.of_nat (length v0) * rhs) (B - N.of_nat (length v0) * rhs) (k0, 0)
                (Forall_inv_tail Hbelow) Hlow ltac:(cbn [fst]; lia) HB) as (ki & s & Hsel & H1 & H2).
    { exists (N.of_nat (length v0)), 0. cbn [snd]. repeat split; lia. }
    exists ki, s. split; [exact Hsel|].
    rewrite flat_cons, app_length, rev_length, Nat2N.inj_add. split; [|lia].
    apply (N.mul_le_mono_pos_r _ _ rhs Hrhs). lia.
Qed.

(* the descent ends on a leaf whose B-byte buffer contains the first record of the key *)
Theorem find_leaf_serialize : forall hdr_end m1 k v m2,
  let m := m1 ++ (k, v) :: m2 in
  let f := serialize hdr_end m in
  wf m -> 0 < rhs -> rhs <= B -> 2 <= max_amount ->
  exists s,
    find_leaf (S (length (nodes f))) f k (tree_offset f) = Some (leaves_offset f + rhs * s) /\
    s <= N.of_nat (length (flat m1)) /\
    N.of_nat (length (flat m1)) < s + N.min (file_size f - (leaves_offset f + rhs * s)) B / rhs.
Proof.
  intros hdr_end m1 k v m2 m f Hw Hrhs HB Hmax.
  destruct (leaves_sel m1 k v m2 Hw Hrhs HB) as (ki & s & Hsel & Hs1 & Hs2). fold m in Hsel.
  destruct (leaves_shape m ltac:(subst m; destruct m1; discriminate) Hw HB) as (Hlen & Hsort & Hhd & Hbig).
  set (ns := build_tree (length m) (leaves m) hdr_end []).
  assert (Hroom : ns <> [] -> hdr_end + nodes_size ns + B <= hdr_end + nodes_size ns + N.of_nat (length (flat m)) * rhs).
  { intros Hne. destruct (Nat.le_gt_cases (length (leaves m)) 1) as [Hle|Hgt].
    - exfalso. apply Hne. apply build_tree_small. assumption.
    - specialize (Hbig ltac:(lia)). lia. }
  destruct (descent Hmax (length m) (leaves m) f [] k ltac:(lia) ltac:(lia) Hsort Hhd
              (eq_sym (app_nil_r ns)) (N.le_refl _) Hroom) as (d & Hd & Hfl).
  change (tree_offset f) with hdr_end in *. fold ns in Hd, Hfl.
  change (leaves_offset f) with (hdr_end + nodes_size ns).
  exists s. split; [|split; [assumption|]].
  - change (nodes f) with ns. replace (S (length ns)) with (d + (S (length ns) - d))%nat by lia.
    rewrite Hfl, Hsel. cbn [snd].
    rewrite find_leaf_done by (change (leaves_offset f) with (hdr_end + nodes_size ns); lia). f_equal. lia.
  - (* the record exists, and it ends within B bytes of the leaf's start *)
    change (file_size f) with (hdr_end + nodes_size ns + N.of_nat (length (flat m)) * rhs).
    assert (HT : (length (flat m1) < length (flat m))%nat).
    { destruct (first_at_flat m1 k v m2 Hw) as (((h & Hh & _) & _) & _). apply nth_error_Some. fold m in Hh. congruence. }
    apply N.lt_le_trans with (s + (N.of_nat (length (flat m1)) + 1 - s)); [lia|].
    apply N.add_le_mono_l. apply N.div_le_lower_bound; [lia|]. nia.
Qed.

Theorem serialize_equiv : forall hdr_end m,
  wf m -> 0 < rhs -> rhs <= B -> ksz + 24 <= B ->
  (forall k, get_latest_file (serialize hdr_end m) k = get_latest_mem m k) /\
  (forall k, get_all_file (serialize hdr_end m) k = get_all_mem m k) /\
  f_count (serialize hdr_end m) = count m /\
  load_file (serialize hdr_end m) = m.
Proof.
  intros hdr_end m Hw Hrhs HB HB2.
  assert (Hboth : forall k, get_latest_file (serialize hdr_end m) k = get_latest_mem m k /\
                            get_all_file (serialize hdr_end m) k = get_all_mem m k).
  { intros k. unfold BPTree.get_latest_file, BPTree.get_all_file.
    destruct (lookup m k) as [v|] eqn:El.
    - destruct (lookup_split _ _ _ El) as (m1 & m2 & Hm). subst m.
      destruct (find_leaf_serialize hdr_end m1 k v m2 Hw Hrhs HB (max_amount_ge2 HB2)) as (s & Hfind & Hs1 & Hs2).
      rewrite Hfind. exact (leaf_lookup_present hdr_end m1 k v m2 s Hw Hrhs Hs1 Hs2).
    - unfold BPTree.get_latest_mem, BPTree.get_all_mem. rewrite El.
      destruct (find_leaf _ _ _ _) as [lo|]; [|split; reflexivity].
      exact (leaf_lookup_absent hdr_end m k lo Hw El). }
  split; [intros k; apply Hboth|]. split; [intros k; apply Hboth|].
  split; [apply count_serialize|apply load_serialize; assumption].
Qed.

End Proofs.

(* pearl's parameters: B = 4096, rhs = ksz + 57, ksz <= 1000 *)
Corollary serialize_equiv_pearl : forall (H : Type) (hkey : H -> N) ksz hdr_end (m : inmem H),
  ksz <= 1000 -> wf H hkey m ->
  let f := serialize H 4096 ksz (ksz + 57) hdr_end m in
  (forall k, get_latest_file H hkey 4096 ksz (ksz + 57) f k = get_latest_mem H m k) /\
  (forall k, get_all_file H hkey 4096 ksz (ksz + 57) f k = get_all_mem H m k) /\
  f_count f = count H m /\
  load_file H hkey f = m.
Proof.
  intros H hkey ksz hdr_end m Hk Hw. apply serialize_equiv; [assumption|lia|lia|lia].
Qed.

Corollary load_serialize_pearl : forall (H : Type) (hkey : H -> N) ksz hdr_end (m : inmem H),
  wf H hkey m -> load_file H hkey (serialize H 4096 ksz (ksz + 57) hdr_end m) = m.
Proof. intros. apply load_serialize. assumption. Qed.

Print Assumptions count_serialize.
Print Assumptions recs_serialize.
Print Assumptions load_serialize.
Print Assumptions leaf_lookup_present.
Print Assumptions leaf_lookup_absent.
Print Assumptions find_leaf_serialize.
Print Assumptions serialize_equiv.
Print Assumptions serialize_equiv_pearl.
