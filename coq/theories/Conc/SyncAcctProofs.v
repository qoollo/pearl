(* The accounting invariant of SyncAcct.v: [g_pending] counts the appends between A1 and A5, and whatever a counter or
   a sync remembers ([g_written], [g_durable], the values read at S1 and S2) lies below [clp], the contiguous landed
   prefix. With appends serialised ([sstep]) the append in flight is alone, so the [size] it reads at A4 is exact. *)
Require Import Pearl.Base.Prelude Pearl.Conc.SyncAcct.

(* a sync that loads [size]: the append reserves 10..15 (A1, A2) and has not landed when the sync reads 15 (S1), begins
   with the landed prefix at 10 (S2) and records synced = 15 (S3) *)
Theorem old_protocol_refuted :
  exists b ths sched,
    fresh ths /\
    let '(g, _) := run POldSyncLoadsSize (init b ths) sched in
    g_durable g < g_synced g.
Proof.
  exists 10, [TA (ANew 5); TS SNew], [0; 0; 1; 1; 1]%nat.
  split; [reflexivity | vm_compute; reflexivity].
Qed.

Theorem load_after_decrement_refuted :
  exists b ths sched,
    fresh ths /\
    let '(g, _) := run PLoadAfterDecrement (init b ths) sched in
    g_durable g < g_synced g.
Proof.
  exists 0, [TA (ANew 5); TA (ANew 7); TS SNew],
         [ 0; 0; 0; 0;     (* the first append lands 0..5 and decrements: it was the last in flight *)
           1; 1;           (* the second reserves 5..12 *)
           0;              (* the first loads size = 12: written := 12, of which 5..12 has not landed *)
           2; 2; 2 ]%nat.  (* the sync reads 12, begins with the landed prefix at 5, records synced = 12 *)
  split; [reflexivity | vm_compute; reflexivity].
Qed.

(* without the serialising lock the counter is safe but not exact *)
Theorem concurrent_appends_may_underestimate :
  exists b ths sched,
    fresh ths /\
    let '(g, ths') := run PNew (init b ths) sched in
    forallb is_done ths' = true /\ g_pending g = 0 /\ g_written g < g_size g.
Proof.
  exists 0, [TA (ANew 5); TA (ANew 7)],
         [ 0; 0; 0; 0;     (* the first append lands 0..5 and loads size = 5 *)
           1; 1; 1; 1; 1;  (* the second runs to its end; it is not the last in flight: written stays *)
           0 ]%nat.        (* the first leaves as the last: written := 5, size = 12 *)
  split; [reflexivity | vm_compute; repeat split; reflexivity].
Qed.

(* non-vacuity: three appends and two syncs that finish *)
Definition ex_ths : list thread :=
  [TA (ANew 5); TA (ANew 7); TS SNew; TA (ANew 11); TS SNew].

Definition ex_sched : list nat :=
  [0; 1; 2; 1; 0; 3; 2; 0; 3; 2; 1; 0; 0; 3; 1; 3; 1; 3; 4; 4; 4]%nat.

Example ex_fresh : fresh ex_ths.
Proof. reflexivity. Qed.

Example ex_final :
  run PNew (init 100 ex_ths) ex_sched
  = (mkG 123 0 123 123 123,
     [TA ADone; TA ADone; TS SDone; TA ADone; TS SDone]).
Proof. vm_compute. reflexivity. Qed.

Example ex_final_synced_is_size :
  let '(g, ths') := run PNew (init 100 ex_ths) ex_sched in
  forallb is_done ths' = true /\ g_synced g = g_size g /\ g_size g = 123.
Proof. vm_compute. repeat split; reflexivity. Qed.

(* the first sync of the same run, observed midway: it ran while appends were
   in flight and is strictly behind [size] but not ahead of [durable] *)
Example ex_midway :
  let '(g, _) := run PNew (init 100 ex_ths) (firstn 10 ex_sched) in
  g_synced g = 100 /\ g_durable g = 100 /\ g_size g = 123.
Proof. vm_compute. repeat split; reflexivity. Qed.

(* weight of a thread in appends_in_flight *)
Definition wt (t : thread) : N :=
  match t with
  | TA (AIncd _) | TA (AReserved _ _) | TA (ALanded _ _) | TA (ALoaded _) => 1
  | _ => 0
  end.

Fixpoint count (ths : list thread) : N :=
  match ths with
  | [] => 0
  | t :: r => wt t + count r
  end.

Definition isres (t : thread) : bool :=
  match t with
  | TA (AReserved _ _) => true
  | _ => false
  end.

Lemma wt_le_1 : forall t, wt t <= 1.
Proof. intros [[]|[]]; cbn [wt]; lia. Qed.

Lemma clp_min : forall r a b, clp r (N.min a b) = N.min a (clp r b).
Proof.
  induction r as [|x r IH]; intros a b; cbn [clp]; [reflexivity|].
  specialize (IH a b).
  destruct x as [[]|[]]; try exact IH. rewrite IH. lia.
Qed.

Lemma clp_le : forall ths s, clp ths s <= s.
Proof.
  intros ths s. rewrite <- (N.min_id s) at 1. rewrite clp_min. apply N.le_min_l.
Qed.

Lemma clp_app : forall l r s, clp (l ++ r) s = clp l (clp r s).
Proof.
  induction l as [|x l IH]; intros r s; [reflexivity|].
  destruct x as [[]|[]]; cbn [app clp]; rewrite IH; reflexivity.
Qed.

Lemma count_mid : forall l t r, count (l ++ t :: r) = count l + wt t + count r.
Proof.
  induction l as [|x l IH]; intros t r; cbn [app count]; [lia|].
  rewrite IH. lia.
Qed.

Lemma upd_mid : forall l x y r, upd (l ++ x :: r) (length l) y = l ++ y :: r.
Proof.
  induction l as [|z l IH]; intros x y r; cbn [app length upd]; [reflexivity|].
  rewrite IH. reflexivity.
Qed.

Lemma upd_split :
  forall ths i t, nth_error ths i = Some t ->
    exists l r, ths = l ++ t :: r /\ forall x, upd ths i x = l ++ x :: r.
Proof.
  intros ths i t Hn. apply nth_error_split in Hn. destruct Hn as (l & r & -> & <-).
  exists l, r. split; [reflexivity|]. intros x. apply upd_mid.
Qed.

Lemma clp_mid_nonres :
  forall l t r s, isres t = false -> clp (l ++ t :: r) s = clp l (clp r s).
Proof.
  intros l t r s Ht. rewrite clp_app.
  destruct t as [[]|[]]; try reflexivity. discriminate Ht.
Qed.

Lemma clp_mid_reserve :
  forall l t r s len, isres t = false ->
    clp (l ++ TA (AReserved s len) :: r) (s + len) = clp (l ++ t :: r) s.
Proof.
  intros l t r s len Ht. rewrite (clp_mid_nonres l t r s Ht), clp_app.
  cbn [clp]. rewrite <- clp_min, N.min_l by apply N.le_add_r. reflexivity.
Qed.

Lemma clp_mid_le :
  forall l t t' r s, isres t' = false -> clp (l ++ t :: r) s <= clp (l ++ t' :: r) s.
Proof.
  intros l t t' r s Ht'. rewrite (clp_mid_nonres l t' r s Ht'), clp_app.
  destruct t as [[]|[]]; cbn [clp]; try apply N.le_refl.
  rewrite clp_min. apply N.le_min_r.
Qed.

Lemma count0_clp : forall ths s, count ths = 0 -> clp ths s = s.
Proof.
  induction ths as [|x r IH]; intros s Hc; cbn [clp]; [reflexivity|].
  cbn [count] in Hc.
  assert (Hr : count r = 0) by lia.
  specialize (IH s Hr).
  destruct x as [[]|[]]; try exact IH.
  cbn [wt] in Hc. lia.
Qed.

Lemma Forall_mid :
  forall (P : thread -> Prop) l t t' r,
    Forall P (l ++ t :: r) -> P t' -> Forall P (l ++ t' :: r).
Proof.
  intros P l t t' r Hall Ht'. apply Forall_app in Hall. destruct Hall as [Hl Hr].
  apply Forall_app. split; [exact Hl|].
  inversion Hr; subst. constructor; assumption.
Qed.

Lemma fresh_count : forall ths, fresh ths -> count ths = 0.
Proof.
  unfold fresh. induction ths as [|x r IH]; intros Hf; [reflexivity|].
  cbn [forallb] in Hf. apply andb_true_iff in Hf. destruct Hf as [Hx Hr].
  cbn [count]. rewrite (IH Hr).
  destruct x as [[]|[]]; cbn [wt]; try reflexivity; discriminate Hx.
Qed.

Definition tok (sz c : N) (t : thread) : Prop :=
  match t with
  | TA (ALoaded s) => s <= sz
  | TA (ADecd _) => False
  | TS (SLoaded w) => w <= c
  | TS (SBegun w k) => w <= k /\ k <= c
  | _ => True
  end.

Definition Inv (st : glob * list thread) : Prop :=
  let g := fst st in
  let ths := snd st in
  g_pending g = count ths /\
  g_written g <= clp ths (g_size g) /\
  Forall (tok (g_size g) (clp ths (g_size g))) ths /\
  g_synced g <= g_durable g /\
  g_durable g <= clp ths (g_size g).

Lemma Forall_tok_mono :
  forall sz c sz' c' ths,
    sz <= sz' -> c <= c' -> Forall (tok sz c) ths -> Forall (tok sz' c') ths.
Proof.
  intros sz c sz' c' ths Hs Hc Hall.
  eapply Forall_impl; [|exact Hall].
  intros t Ht. destruct t as [[]|[]]; cbn [tok] in *; lia.
Qed.

Lemma inv_init : forall b ths, fresh ths -> Inv (init b ths).
Proof.
  intros b ths Hf. pose proof (fresh_count ths Hf) as Hc.
  unfold Inv, init. cbn [fst snd g_size g_pending g_written g_synced g_durable].
  rewrite (count0_clp ths b Hc).
  repeat split; try lia.
  apply Forall_forall. intros t Ht. apply (proj1 (forallb_forall is_fresh ths) Hf) in Ht.
  destruct t as [[]|[]]; cbn [tok]; try exact I; discriminate Ht.
Qed.

Lemma Inv_local :
  forall g g' l t t' r,
    Inv (g, l ++ t :: r) -> isres t' = false ->
    g_size g' = g_size g ->
    g_pending g' + wt t = g_pending g + wt t' ->
    g_written g' <= clp (l ++ t :: r) (g_size g) ->
    tok (g_size g) (clp (l ++ t :: r) (g_size g)) t' ->
    g_synced g' <= g_durable g' ->
    g_durable g' <= clp (l ++ t :: r) (g_size g) ->
    Inv (g', l ++ t' :: r).
Proof.
  intros g g' l t t' r (Hp & Hw & Hall & Hsd & Hdc) Ht' Hs Hpe Hw' Htok Hsd' Hdc'.
  cbn [fst snd] in Hp, Hall. rewrite count_mid in Hp.
  pose proof (clp_mid_le l t t' r (g_size g) Ht') as Hc.
  unfold Inv. cbn [fst snd]. rewrite Hs, count_mid.
  split; [lia|]. split; [lia|]. split; [|split; lia].
  apply (Forall_tok_mono (g_size g) (clp (l ++ t :: r) (g_size g))); [lia | exact Hc |].
  apply (Forall_mid _ l t); assumption.
Qed.

Lemma inv_step : forall st i, Inv st -> Inv (step PNew st i).
Proof.
  intros [g ths] i HI.
  destruct (nth_error ths i) as [t|] eqn:Hn.
  2:{ unfold step. cbn [fst snd]. rewrite Hn. exact HI. }
  destruct (upd_split ths i t Hn) as (l & r & -> & Hu).
  pose proof HI as (Hp & Hw & Hall & Hsd & Hdc).
  cbn [fst snd] in Hp, Hw, Hall, Hsd, Hdc. rewrite count_mid in Hp.
  pose proof (Forall_elt _ _ _ Hall) as Ht.
  pose proof (clp_le (l ++ t :: r) (g_size g)) as Hcs.
  unfold step. cbn [fst snd]. rewrite Hn.
  destruct t as [a|s]; [destruct a as [len|len|off len|off len|s|last|]
                       | destruct s as [|w|w c|]];
    cbn [tok wt] in Ht, Hp; try rewrite Hu.
  (* Every step but A2 keeps [size] and reserves nothing: Inv_local applies. Its premises, read off the new state by
     [cbn], are equations that hold by computation or conjuncts of HI, except: the counter at A1 and A5, [written] at
     A5, the [tok] of the sync at S2, [synced] and [durable] at S3. *)
  - (* A1 *)
    apply (Inv_local g _ l _ _ r HI); cbn;
      try reflexivity; try assumption. lia.
  - (* A2 *)
    unfold Inv. cbn [fst snd g_size g_pending g_written g_synced g_durable].
    rewrite count_mid, (clp_mid_reserve l (TA (AIncd len))) by reflexivity. cbn [wt].
    split; [lia|]. split; [exact Hw|]. split; [|split; assumption].
    apply (Forall_mid _ l (TA (AIncd len))).
    + apply (Forall_tok_mono (g_size g) (clp (l ++ TA (AIncd len) :: r) (g_size g)));
        [lia | lia | exact Hall].
    + exact I.
  - (* A3: landing can only lengthen the landed prefix *)
    apply (Inv_local g _ l _ _ r HI); cbn;
      try reflexivity; assumption.
  - (* A4 *)
    apply (Inv_local g _ l _ _ r HI); cbn;
      try reflexivity; assumption.
  - (* A5: the last append out finds every byte below its s landed *)
    apply (Inv_local g _ l _ _ r HI); cbn;
      try reflexivity; try assumption; [lia|].
    destruct (g_pending g =? 1) eqn:He; [|exact Hw].
    apply N.eqb_eq in He.
    rewrite (clp_mid_nonres l (TA (ALoaded s)) r _ eq_refl), !count0_clp by lia. lia.
  - (* ADecd: does not occur under PNew *)
    contradiction.
  - exact HI.
  - (* S1 *)
    apply (Inv_local g _ l _ _ r HI); cbn;
      try reflexivity; assumption.
  - (* S2 *)
    apply (Inv_local g _ l _ _ r HI); cbn;
      try reflexivity; try assumption. split; [exact Ht | apply N.le_refl].
  - (* S3 *)
    apply (Inv_local g _ l _ _ r HI); cbn;
      try reflexivity; try assumption; lia.
  - exact HI.
Qed.

Lemma Inv_sound :
  forall st, Inv st ->
    let '(g, ths) := st in
    g_synced g <= g_durable g /\
    g_durable g <= clp ths (g_size g) /\
    g_written g <= clp ths (g_size g).
Proof.
  intros [g ths] (_ & Hw & _ & Hsd & Hdc). split; [exact Hsd|]. split; [exact Hdc | exact Hw].
Qed.

Theorem acct_sound :
  forall b ths sched,
    fresh ths ->
    let '(g, ths') := run PNew (init b ths) sched in
    g_synced g <= g_durable g /\
    g_durable g <= clp ths' (g_size g) /\
    g_written g <= clp ths' (g_size g).
Proof.
  intros b ths sched Hf.
  apply (Inv_sound (run PNew (init b ths) sched)). unfold run.
  apply fold_left_inv; [exact inv_step|apply inv_init, Hf].
Qed.

Theorem dirty_overapproximates :
  forall b ths sched,
    fresh ths ->
    let '(g, _) := run PNew (init b ths) sched in
    g_size g - g_synced g >= g_size g - g_durable g.
Proof.
  intros b ths sched Hf.
  pose proof (acct_sound b ths sched Hf) as H.
  destruct (run PNew (init b ths) sched) as [g ths'].
  destruct H as (Hsd & Hdc & Hw). lia.
Qed.

Theorem acct_below_size :
  forall b ths sched,
    fresh ths ->
    let '(g, _) := run PNew (init b ths) sched in
    g_synced g <= g_durable g /\ g_durable g <= g_size g /\ g_written g <= g_size g.
Proof.
  intros b ths sched Hf.
  pose proof (acct_sound b ths sched Hf) as H.
  destruct (run PNew (init b ths) sched) as [g ths'].
  destruct H as (Hsd & Hdc & Hw).
  pose proof (clp_le ths' (g_size g)) as Hcs. lia.
Qed.

Lemma inv_sstep : forall st i, Inv st -> Inv (sstep st i).
Proof.
  intros st i HI. unfold sstep.
  destruct (nth_error (snd st) i) as [[[]|]|]; try (apply inv_step, HI).
  destruct (g_pending (fst st) =? 0); [apply inv_step|]; exact HI.
Qed.

Definition tok2 (sz w : N) (t : thread) : Prop :=
  match t with
  | TA (AIncd _) => w = sz
  | TA (ALoaded s) => s = sz
  | _ => True
  end.

Lemma count0_tok2 : forall sz w ths, count ths = 0 -> Forall (tok2 sz w) ths.
Proof.
  intros sz w. induction ths as [|x r IH]; intros Hc; constructor.
  - cbn [count] in Hc. destruct x as [[]|[]]; cbn [tok2]; try exact I;
      cbn [wt] in Hc; lia.
  - apply IH. cbn [count] in Hc. lia.
Qed.

Definition SInv (st : glob * list thread) : Prop :=
  let g := fst st in
  let ths := snd st in
  g_pending g <= 1 /\
  (g_pending g = 0 -> g_written g = g_size g) /\
  Forall (tok2 (g_size g) (g_written g)) ths.

(* if no thread around the one in the middle is in flight, [tok2] only has to be checked in the middle *)
Lemma SInv_sole :
  forall g l t r,
    count l + count r = 0 ->
    g_pending g <= 1 -> (g_pending g = 0 -> g_written g = g_size g) ->
    tok2 (g_size g) (g_written g) t ->
    SInv (g, l ++ t :: r).
Proof.
  intros g l t r Hc Hp1 Hq Ht.
  split; [exact Hp1|]. split; [exact Hq|]. cbn [fst snd].
  apply Forall_app. split; [apply count0_tok2; lia|].
  constructor; [exact Ht|]. apply count0_tok2. lia.
Qed.

Lemma SInv_local :
  forall g g' l t t' r,
    SInv (g, l ++ t :: r) ->
    g_size g' = g_size g -> g_pending g' = g_pending g -> g_written g' = g_written g ->
    tok2 (g_size g) (g_written g) t' ->
    SInv (g', l ++ t' :: r).
Proof.
  intros g g' l t t' r (Hp1 & Hq & Hall) Hs Hp Hw Ht'.
  unfold SInv. cbn [fst snd] in *. rewrite Hs, Hp, Hw.
  split; [exact Hp1|]. split; [exact Hq|]. apply (Forall_mid _ l t); assumption.
Qed.

Lemma sinv_sstep : forall st i, Inv st -> SInv st -> SInv (sstep st i).
Proof.
  intros [g ths] i HI HS.
  destruct (nth_error ths i) as [t|] eqn:Hn.
  2:{ unfold sstep, step. cbn [fst snd]. rewrite !Hn. exact HS. }
  destruct (upd_split ths i t Hn) as (l & r & -> & Hu).
  pose proof HI as (Hp & Hw & Hall & _).
  pose proof HS as (Hp1 & Hq & Hall2).
  cbn [fst snd] in Hp, Hw, Hall, Hp1, Hq, Hall2.
  pose proof (Forall_elt _ _ _ Hall) as Ht.
  pose proof (Forall_elt _ _ _ Hall2) as Ht2.
  pose proof (clp_le (l ++ t :: r) (g_size g)) as Hcs.
  rewrite count_mid in Hp.
  unfold sstep, step. cbn [fst snd]. rewrite !Hn.
  destruct t as [a|s]; [destruct a as [len|len|off len|off len|s|last|]
                       | destruct s as [|w|w c|]];
    cbn [tok tok2 wt] in Ht, Ht2, Hp; try rewrite Hu.
  - (* A1, gated: starts only when nothing is in flight *)
    destruct (g_pending g =? 0) eqn:He; [|exact HS].
    apply N.eqb_eq in He.
    apply SInv_sole; cbn [g_size g_pending g_written]; [lia | lia | lia | exact (Hq He)].
  - (* A2: the only one in flight *)
    apply SInv_sole; cbn [g_size g_pending g_written]; [lia | exact Hp1 | lia | exact I].
  - (* A3 *)
    apply (SInv_local g _ l _ _ r HS eq_refl eq_refl eq_refl). exact I.
  - (* A4 *)
    apply (SInv_local g _ l _ _ r HS eq_refl eq_refl eq_refl). reflexivity.
  - (* A5: the only one in flight, and its s is the size *)
    assert (Hone : g_pending g = 1) by lia.
    rewrite Hone, N.eqb_refl.
    apply SInv_sole; cbn [g_size g_pending g_written]; [lia | lia | lia | exact I].
  - (* ADecd: does not occur *)
    contradiction.
  - exact HS.
  - (* S1 *)
    apply (SInv_local g _ l _ _ r HS eq_refl eq_refl eq_refl). exact I.
  - (* S2 *)
    apply (SInv_local g _ l _ _ r HS eq_refl eq_refl eq_refl). exact I.
  - (* S3 *)
    apply (SInv_local g _ l _ _ r HS eq_refl eq_refl eq_refl). exact I.
  - exact HS.
Qed.

Lemma inv_srun :
  forall b ths sched, fresh ths ->
    Inv (fold_left sstep sched (init b ths)) /\ SInv (fold_left sstep sched (init b ths)).
Proof.
  intros b ths sched Hf. apply (fold_left_inv sstep (fun st => Inv st /\ SInv st)).
  - intros st i [HI HS]. split; [apply inv_sstep | apply sinv_sstep]; assumption.
  - split; [apply inv_init, Hf|].
    unfold SInv, init. cbn [fst snd g_size g_pending g_written].
    repeat split; try lia.
    apply count0_tok2, fresh_count, Hf.
Qed.

Theorem single_writer_precise :
  forall b ths sched,
    fresh ths ->
    let '(g, ths') := fold_left sstep sched (init b ths) in
    g_pending g = 0 -> g_written g = g_size g.
Proof.
  intros b ths sched Hf.
  destruct (inv_srun b ths sched Hf) as [_ HS].
  destruct (fold_left sstep sched (init b ths)) as [g ths'].
  destruct HS as (_ & Hq & _). exact Hq.
Qed.

Theorem single_writer_sound :
  forall b ths sched,
    fresh ths ->
    let '(g, ths') := fold_left sstep sched (init b ths) in
    g_synced g <= g_durable g /\
    g_durable g <= clp ths' (g_size g) /\
    g_written g <= clp ths' (g_size g).
Proof.
  intros b ths sched Hf.
  apply (Inv_sound (fold_left sstep sched (init b ths))), (inv_srun b ths sched Hf).
Qed.

Lemma nth_error_mid :
  forall (l : list thread) x r, nth_error (l ++ x :: r) (length l) = Some x.
Proof.
  intros l x r. rewrite nth_error_app2 by apply Nat.le_refl.
  rewrite Nat.sub_diag. reflexivity.
Qed.

Lemma sstep_sync :
  forall g l s r, sstep (g, l ++ TS s :: r) (length l) = step PNew (g, l ++ TS s :: r) (length l).
Proof. intros g l s r. unfold sstep. cbn [fst snd]. rewrite nth_error_mid. reflexivity. Qed.

(* a sync that starts when no append is in flight, and runs S1,S2,S3 with no
   append step in between, makes synced = durable = size *)
Theorem sync_when_quiet_covers_everything :
  forall b ths sched,
    fresh ths ->
    let '(g, ths') := fold_left sstep sched (init b ths) in
    g_pending g = 0 ->
    let k := length ths' in
    let '(g2, ths2) := sstep (sstep (sstep (g, ths' ++ [TS SNew]) k) k) k in
    g_synced g2 = g_size g2 /\ g_durable g2 = g_size g2 /\
    g_size g2 = g_size g /\ ths2 = ths' ++ [TS SDone].
Proof.
  intros b ths sched Hf.
  destruct (inv_srun b ths sched Hf) as [HI HS].
  destruct (fold_left sstep sched (init b ths)) as [g ths'].
  intros Hp0 k. subst k.
  destruct HI as (Hp & _ & _ & Hsd & Hdc).
  destruct HS as (_ & Hq & _).
  cbn [fst snd] in *.
  specialize (Hq Hp0).
  pose proof (clp_le ths' (g_size g)) as Hcs.
  (* S1, S2, S3 *)
  do 3 (rewrite sstep_sync; unfold step; cbn [fst snd]; rewrite nth_error_mid, upd_mid).
  cbn [g_size g_synced g_durable].
  rewrite clp_app, !count0_clp by (cbn [count wt]; lia).
  repeat split; lia.
Qed.

(* the gate of [sstep]: a second append cannot start while one is in flight,
   and the same 3 appends + 2 syncs finish under [sstep] with synced = size *)
Example ex_sstep_gate :
  fold_left sstep [0; 1; 1; 3]%nat (init 100 ex_ths)
  = (mkG 100 1 100 100 100,
     [TA (AIncd 5); TA (ANew 7); TS SNew; TA (ANew 11); TS SNew]).
Proof. vm_compute. reflexivity. Qed.

Example ex_sstep_final :
  fold_left sstep
    [0; 1; 2; 0; 3; 0; 2; 0; 2; 0; 1; 3; 1; 1; 1; 1; 3; 3; 3; 3; 3; 4; 4; 4]%nat
    (init 100 ex_ths)
  = (mkG 123 0 123 123 123,
     [TA ADone; TA ADone; TS SDone; TA ADone; TS SDone]).
Proof. vm_compute. reflexivity. Qed.

Print Assumptions acct_sound.
Print Assumptions dirty_overapproximates.
Print Assumptions acct_below_size.
Print Assumptions old_protocol_refuted.
Print Assumptions load_after_decrement_refuted.
Print Assumptions single_writer_precise.
Print Assumptions single_writer_sound.
Print Assumptions sync_when_quiet_covers_everything.
Print Assumptions concurrent_appends_may_underestimate.
Print Assumptions ex_final.
Print Assumptions ex_final_synced_is_size.
