(* The protocol that gets the bytes above the limit synced without a further client action (SyncHint.v): an invariant says
   who is responsible for the un-synced bytes while they are above the limit; every step that changes the state lowers
   the measure `mu`, and a state that is not terminal has an enabled actor; in a terminal state the bytes are within the
   limit. The two protocols before the repair are refuted by computed schedules. *)
Require Import Pearl.Base.Prelude Pearl.Conc.SyncHint.

Definition old_sched : list actor :=
  [ AW 0; AW 0;            (* a appends 20 (> 10) and sends *)
    AK; AK; AK;            (* worker: recv, gate, spawn *)
    AT; AT; AT;            (* CAS, look, capture c = 20 *)
    AW 1; AW 1;            (* b appends 20 with the flag up: no send *)
    AT; AT; AT ]%nat.      (* synced := 20, store false, finished *)

Theorem old_protocol_refuted :
  exists L b ws sched, fresh ws /\
    let '(g, ws') := run POld L (init b ws) sched in
    terminal (g, ws') = true /\ L < g_size g - g_synced g.
Proof.
  exists 10, 0, [WNew 20; WNew 20], old_sched.
  split; [reflexivity|]. vm_compute. split; reflexivity.
Qed.

Definition gate_sched : list actor :=
  [ AW 0; AW 0;            (* a appends 20 and sends *)
    AK; AK; AK;            (* recv, gate, spawn *)
    AT; AT; AT; AT; AT; AT;(* CAS, look, capture, synced := 20, store, last look: clean -> Returning *)
    AW 1; AW 1;            (* b appends 20, flag is down: sends *)
    AK; AK;                (* recv; gate: the task exists and is not Finished: drop *)
    AT ]%nat.              (* Returning -> Finished *)

Theorem new_loop_old_gate_refuted :
  exists L b ws sched, fresh ws /\
    let '(g, ws') := run PNewLoopOldGate L (init b ws) sched in
    terminal (g, ws') = true /\ L < g_size g - g_synced g.
Proof.
  exists 10, 0, [WNew 20; WNew 20], gate_sched.
  split; [reflexivity|]. vm_compute. split; reflexivity.
Qed.

(* The same two schedules are harmless under PNew. *)
Example old_sched_under_new_not_terminal :
  terminal (run PNew 10 (init 0 [WNew 20; WNew 20]) old_sched) = false.
Proof. vm_compute. reflexivity. Qed.
Example gate_sched_under_new_not_terminal :
  terminal (run PNew 10 (init 0 [WNew 20; WNew 20]) gate_sched) = false.
Proof. vm_compute. reflexivity. Qed.

Definition ex_ws : list wthread := [WNew 20; WNew 3; WNew 15].
Definition ex_sched : list actor :=
  [ AW 0; AW 0; AK; AK; AK; AT; AT; AT;   (* ... capture c = 20 *)
    AW 2; AW 2;                            (* +15 with the flag up: no send *)
    AT; AT; AT;                            (* synced := 20; store; look: 15 > 10 -> T0 *)
    AT; AT; AT;                            (* CAS, look, capture c = 35 *)
    AW 1; AW 1;                            (* +3, under the limit *)
    AT; AT; AT; AT ]%nat.                  (* synced := 35; store; look: 3 <= 10; finished *)

Example new_protocol_run :
  fresh ex_ws /\
  let '(g, ws') := run PNew 10 (init 0 ex_ws) ex_sched in
  terminal (g, ws') = true /\ g_size g = 38 /\ g_synced g = 35
  /\ g_size g - g_synced g <= 10 /\ 0 < g_synced g.
Proof. split; [reflexivity|]. vm_compute. repeat split; congruence. Qed.

Example terminal_reachable_over_limit_midway :
  exists pre post, ex_sched = pre ++ post /\
    let '(g, _) := run PNew 10 (init 0 ex_ws) pre in
    10 < g_size g - g_synced g.
Proof.
  exists (firstn 9 ex_sched), (skipn 9 ex_sched).
  split; [reflexivity|]. vm_compute. reflexivity.
Qed.

Definition task_holds (t : tstate) : bool :=
  match t with T1 | T2 | T3 _ | T4 => true | _ => false end.
Definition task_active (t : tstate) : bool :=
  match t with T0 | T1 | T2 | T3 _ | T4 | T5 => true | _ => false end.
Definition is_over (L : N) (w : wthread) : bool :=
  match w with WAppended d => L <? d | _ => false end.
Definition has_over (L : N) (ws : list wthread) : bool :=
  existsb (is_over L) ws.

(* Somebody is still going to look at the dirty count. *)
Definition responsible (L : N) (g : glob) (ws : list wthread) : Prop :=
  (0 < g_chan g)%nat \/ g_worker g <> KIdle
  \/ task_active (g_task g) = true \/ has_over L ws = true.

Definition Inv (L : N) (st : glob * list wthread) : Prop :=
  let (g, ws) := st in
  g_synced g <= g_size g
  /\ g_flag g = task_holds (g_task g)
  /\ (forall c, g_task g = T3 c -> c <= g_size g)
  /\ (L < dirty g -> responsible L g ws).

Lemma has_over_mid : forall L l1 w l2,
  has_over L (l1 ++ w :: l2) = has_over L l1 || (is_over L w || has_over L l2).
Proof.
  intros L l1 w l2. unfold has_over. rewrite existsb_app. reflexivity.
Qed.

Lemma wupd_split : forall ws i w,
  nth_error ws i = Some w ->
  exists l1 l2, ws = l1 ++ w :: l2 /\ forall w', upd i w' ws = l1 ++ w' :: l2.
Proof.
  intros ws i w Hn. apply nth_error_split in Hn. destruct Hn as (l1 & l2 & -> & <-).
  exists l1, l2. split; [reflexivity|]. intros w'.
  induction l1 as [|x l1 IH]; cbn [length app upd]; [reflexivity|]. rewrite IH. reflexivity.
Qed.

Lemma holds_active : forall t, task_holds t = true -> task_active t = true.
Proof. intros t Ht. destruct t; try discriminate Ht; reflexivity. Qed.

Lemma responsible_task : forall L g ws,
  task_active (g_task g) = true -> responsible L g ws.
Proof. intros L g ws Ha. right. right. left. exact Ha. Qed.

Lemma Inv_task_active : forall L g ws,
  g_synced g <= g_size g -> g_flag g = task_holds (g_task g) ->
  (forall c, g_task g = T3 c -> c <= g_size g) ->
  task_active (g_task g) = true -> Inv L (g, ws).
Proof.
  intros L g ws Hle Hfl Hc Ha.
  split; [exact Hle|]. split; [exact Hfl|]. split; [exact Hc|].
  intros _. apply responsible_task. exact Ha.
Qed.

Lemma Inv_frame : forall L g g' ws ws',
  Inv L (g, ws) ->
  g_size g' = g_size g -> g_synced g' = g_synced g ->
  g_flag g' = g_flag g -> g_task g' = g_task g ->
  (responsible L g ws -> responsible L g' ws') ->
  Inv L (g', ws').
Proof.
  intros L g g' ws ws' (Hle & Hfl & Hc & Hres) Hs Hy Hf Ht Hr.
  unfold Inv, dirty. rewrite Hs, Hy, Hf, Ht.
  split; [exact Hle|]. split; [exact Hfl|]. split; [exact Hc|].
  intros Hd. apply Hr, Hres, Hd.
Qed.

Lemma inv_init : forall L b ws, Inv L (init b ws).
Proof.
  intros L b ws. unfold Inv, init, dirty. cbn.
  split; [lia|]. split; [reflexivity|]. split; [intros c Hc; discriminate Hc|].
  intros Hd. lia.
Qed.

Lemma inv_wstep : forall L g l1 w l2,
  Inv L (g, l1 ++ w :: l2) ->
  Inv L (fst (wstep L g w), l1 ++ snd (wstep L g w) :: l2).
Proof.
  intros L g l1 w l2 HI. pose proof HI as (Hle & Hfl & Hc & _).
  destruct w as [len | d |]; cbn [wstep fst snd].
  - (* W1: the writer itself now remembers a count over the limit *)
    unfold Inv, dirty. cbn [set_size g_size g_synced g_flag g_task].
    split; [lia|]. split; [exact Hfl|].
    split; [intros c Ht; specialize (Hc c Ht); lia|].
    intros Hd. right. right. right.
    rewrite has_over_mid. cbn [is_over].
    apply N.ltb_lt in Hd. rewrite Hd. rewrite orb_true_r. reflexivity.
  - (* W2: maybe send *)
    destruct (L <? d) eqn:Hd; cbn [andb].
    + destruct (g_flag g) eqn:Hflag; cbn [negb];
        (apply (Inv_frame L g _ _ _ HI); try reflexivity; intros _).
      * (* flag up: the task is between its CAS and its store *)
        apply responsible_task, holds_active. rewrite <- Hfl. reflexivity.
      * (* flag down: send *)
        left. cbn [set_chan g_chan]. lia.
    + apply (Inv_frame L g _ _ _ HI); try reflexivity.
      unfold responsible. rewrite !has_over_mid. cbn [is_over]. rewrite Hd.
      intros Hr. exact Hr.
  - exact HI.
Qed.

Lemma inv_kstep : forall L g ws, Inv L (g, ws) -> Inv L (kstep PNew g, ws).
Proof.
  intros L g ws HI. pose proof HI as (Hle & Hfl & _).
  unfold kstep. cbn [gate_reads_flag].
  destruct (g_worker g).
  - destruct (g_chan g) as [|n]; [exact HI|].
    apply (Inv_frame L g _ _ _ HI); try reflexivity. intros _.
    right. left. cbn [set_worker g_worker]. discriminate.
  - destruct (task_running (g_task g) && g_flag g) eqn:Hg;
      (apply (Inv_frame L g _ _ _ HI); try reflexivity; intros _).
    + (* the hint is dropped only while the flag is up *)
      apply andb_true_iff in Hg. destruct Hg as [_ Hflag].
      apply responsible_task, holds_active. cbn [set_worker g_task].
      rewrite <- Hfl. exact Hflag.
    + right. left. cbn [set_worker g_worker]. discriminate.
  - destruct (task_running (g_task g)) eqn:Hrun; [exact HI|].
    apply Inv_task_active; cbn; [exact Hle | | discriminate | reflexivity].
    rewrite Hfl. destruct (g_task g); try discriminate Hrun; reflexivity.
Qed.

Lemma inv_tstep : forall L g ws, Inv L (g, ws) -> Inv L (tstep PNew L g, ws).
Proof.
  intros L g ws HI. pose proof HI as (Hle & Hfl & Hc & Hr).
  unfold tstep. cbn [task_loops].
  destruct (g_task g) as [| | | | c | | | |] eqn:Et; cbn [task_holds] in Hfl.
  - exact HI.
  - (* T0: the flag is down, the CAS succeeds *)
    rewrite Hfl.
    apply Inv_task_active; cbn; [exact Hle | reflexivity | discriminate | reflexivity].
  - destruct (L <? dirty g);
      (apply Inv_task_active; cbn; [exact Hle | exact Hfl | discriminate | reflexivity]).
  - apply Inv_task_active; cbn; [exact Hle | exact Hfl | | reflexivity].
    intros c Ht. injection Ht as <-. apply N.le_refl.
  - apply Inv_task_active; cbn; [| exact Hfl | discriminate | reflexivity].
    apply N.max_lub; [exact Hle | exact (Hc c eq_refl)].
  - apply Inv_task_active; cbn; [exact Hle | reflexivity | discriminate | reflexivity].
  - (* T5: the second look *)
    destruct (N.ltb_spec L (dirty g)) as [Hd | Hd].
    + apply Inv_task_active; cbn; [exact Hle | exact Hfl | discriminate | reflexivity].
    + split; [exact Hle|]. split; [exact Hfl|]. split; [discriminate|].
      intros Hd'. apply N.lt_nge in Hd'. contradiction (Hd' Hd).
  - split; [exact Hle|]. split; [exact Hfl|]. split; [discriminate|].
    (* neither TReturning nor TFinished is active: whoever was responsible still is *)
    intros Hd. specialize (Hr Hd). unfold responsible in *. rewrite Et in Hr. exact Hr.
  - exact HI.
Qed.

Lemma inv_step : forall L st a, Inv L st -> Inv L (step PNew L st a).
Proof.
  intros L [g ws] a HI. destruct a as [i | |]; cbn [step].
  - destruct (nth_error ws i) as [w|] eqn:Hn; [|exact HI].
    destruct (wupd_split ws i w Hn) as (l1 & l2 & -> & Hu).
    pose proof (inv_wstep L g l1 w l2 HI) as Hw.
    destruct (wstep L g w) as [g' w']. rewrite Hu. exact Hw.
  - apply inv_kstep. exact HI.
  - apply inv_tstep. exact HI.
Qed.

Lemma inv_terminal : forall L g ws,
  Inv L (g, ws) -> terminal (g, ws) = true -> g_size g - g_synced g <= L.
Proof.
  intros L g ws (Hle & Hfl & Hc & Hr) Ht.
  unfold terminal in Ht.
  rewrite !andb_true_iff in Ht. destruct Ht as [[[Hdone Hchan] Hwork] Htask].
  apply Nat.eqb_eq in Hchan.
  destruct (N.le_gt_cases (g_size g - g_synced g) L) as [Hok | Hbad]; [exact Hok|].
  exfalso. specialize (Hr Hbad).
  destruct Hr as [H | [H | [H | H]]].
  - lia.
  - destruct (g_worker g); try discriminate Hwork. apply H. reflexivity.
  - destruct (g_task g); try discriminate H; discriminate Htask.
  - apply existsb_exists in H. destruct H as (w & Hin & Hw).
    apply (proj1 (forallb_forall is_done ws) Hdone) in Hin.
    destruct w; try discriminate Hw. discriminate Hin.
Qed.

(* whatever the writers' states: [init] has no dirty byte *)
Theorem no_stuck_dirty_bytes : forall L b ws sched,
  let '(g, ws') := run PNew L (init b ws) sched in
  terminal (g, ws') = true -> g_size g - g_synced g <= L.
Proof.
  intros L b ws sched.
  assert (HI : Inv L (run PNew L (init b ws) sched)).
  { apply (fold_left_inv _ _ (inv_step L)), inv_init. }
  destruct (run PNew L (init b ws) sched) as [g ws'].
  intros Ht. exact (inv_terminal L g ws' HI Ht).
Qed.

(* A measure that every state-changing step of PNew strictly decreases.
   Hence the task's loop T5 -> T0 cannot go round for ever, the worker's
   KWait always ends, and every run that keeps picking enabled actors
   reaches a terminal state after at most [mu] steps.
   The task pays at least 1 per step. Every move of the worker pays 8, and
   the task it spawns starts at rank 7. A hint in the channel weighs 24, so
   the writer's 32 cover the send; an append can lift the task's rank by at
   most 10 (trank_le), covered by the 11 between 43 and 32. *)
Definition weight (w : wthread) : nat :=
  match w with WNew _ => 43 | WAppended _ => 32 | WDone => 0 end.
Definition wrank (k : kstate) : nat :=
  match k with KIdle => 0 | KWait => 1 | KGot => 2 end.
Definition trank (L : N) (g : glob) : nat :=
  match g_task g with
  | TNone | TFinished => 0
  | TReturning => 1
  | T5 => if (L <? dirty g)%N then 8 else 2
  | T4 => if (L <? dirty g)%N then 9 else 3
  | T3 c => if (L <? g_size g - N.max (g_synced g) c)%N then 10 else 4
  | T2 => 5
  | T1 => 6
  | T0 => 7
  end%nat.
Definition mu (L : N) (st : glob * list wthread) : nat :=
  let (g, ws) := st in
  (list_sum (map weight ws) + 8 * (3 * g_chan g + wrank (g_worker g))
   + trank L g)%nat.

Lemma trank_le : forall L g, (trank L g <= 10)%nat.
Proof.
  intros L g. unfold trank.
  destruct (g_task g); try lia;
    match goal with |- context [if ?b then _ else _] => destruct b end; lia.
Qed.

Lemma trank_ext : forall L g g',
  g_task g' = g_task g -> g_size g' = g_size g -> g_synced g' = g_synced g ->
  trank L g' = trank L g.
Proof.
  intros L g g' Ht Hs Hy. unfold trank, dirty. rewrite Ht, Hs, Hy. reflexivity.
Qed.

Lemma wsum_mid : forall l1 w l2,
  list_sum (map weight (l1 ++ w :: l2))
  = (list_sum (map weight l1) + weight w + list_sum (map weight l2))%nat.
Proof.
  intros l1 w l2. rewrite map_app, list_sum_app. cbn [map].
  change (list_sum (weight w :: map weight l2))
    with (weight w + list_sum (map weight l2))%nat. lia.
Qed.

Lemma wstep_mu : forall L g ws i w,
  nth_error ws i = Some w -> w <> WDone ->
  (mu L (step PNew L (g, ws) (AW i)) < mu L (g, ws))%nat.
Proof.
  intros L g ws i w Hn Hw. cbn [step]. rewrite Hn.
  destruct (wupd_split ws i w Hn) as (l1 & l2 & -> & Hu).
  destruct w as [len | d |]; cbn [wstep]; rewrite Hu; unfold mu;
    rewrite !wsum_mid; cbn [weight].
  - pose proof (trank_le L (set_size g (g_size g + len))) as Ht.
    cbn [set_size g_chan g_worker]. lia.
  - destruct ((L <? d) && negb (g_flag g)); [|lia].
    rewrite (trank_ext L g) by reflexivity. cbn [set_chan g_chan g_worker]. lia.
  - contradiction Hw. reflexivity.
Qed.

Lemma kstep_mu : forall L g ws,
  kstep PNew g <> g -> (mu L (kstep PNew g, ws) < mu L (g, ws))%nat.
Proof.
  intros L g ws Hch. unfold mu, kstep in *. cbn [gate_reads_flag] in *.
  destruct (g_worker g).
  - destruct (g_chan g) as [|n]; [contradiction Hch; reflexivity|].
    rewrite (trank_ext L g) by reflexivity.
    cbn [set_worker set_chan g_chan g_worker wrank]. lia.
  - destruct (task_running (g_task g) && g_flag g);
      rewrite (trank_ext L g) by reflexivity;
      cbn [set_worker g_chan g_worker wrank]; lia.
  - destruct (task_running (g_task g)) eqn:Hrun; [contradiction Hch; reflexivity|].
    (* the spawn: no task was running, the new one starts at rank 7 *)
    assert (Ht : trank L g = 0%nat).
    { unfold trank. destruct (g_task g); try discriminate Hrun; reflexivity. }
    rewrite Ht. unfold trank.
    cbn [set_worker set_task g_chan g_worker g_task wrank]. lia.
Qed.

Lemma tstep_frame : forall L g,
  g_chan (tstep PNew L g) = g_chan g /\ g_worker (tstep PNew L g) = g_worker g.
Proof.
  intros L g. unfold tstep.
  (* every branch is g with its task, flag or synced replaced; the case analysis only exposes the branch *)
  destruct (g_task g), (g_flag g), (L <? dirty g); split; reflexivity.
Qed.

(* Once the task state is known the ranks are numerals; only T1 and T2 have
   to relate the look to the rank of the state they move to. *)
Lemma tstep_rank : forall L g, task_running (g_task g) = true ->
  (trank L (tstep PNew L g) < trank L g)%nat.
Proof.
  intros L [size synced flag chan task worker] Hrun.
  unfold tstep, trank, dirty, task_loops.
  cbn [g_task g_flag g_size g_synced] in *.
  destruct task as [| | | | c | | | |]; try discriminate Hrun.
  - destruct flag; cbn [set_task set_flag g_task]; lia.
  - destruct (N.ltb_spec L (size - synced)) as [Hd | Hd];
      cbn [set_task g_task g_size g_synced].
    + lia.
    + destruct (N.ltb_spec L (size - synced)) as [Hd' | Hd']; lia.
  - cbn [set_task g_task g_size g_synced].
    destruct (N.ltb_spec L (size - N.max synced size)) as [Hd | Hd]; lia.
  - cbn [set_task set_synced g_task g_size g_synced].
    destruct (L <? size - N.max synced c); lia.
  - cbn [set_task set_flag g_task g_size g_synced].
    destruct (L <? size - synced); lia.
  - destruct (L <? size - synced); cbn [set_task g_task]; lia.
  - cbn [set_task g_task]. lia.
Qed.

Lemma tstep_mu : forall L g ws, task_running (g_task g) = true ->
  (mu L (tstep PNew L g, ws) < mu L (g, ws))%nat.
Proof.
  intros L g ws Hrun. pose proof (tstep_rank L g Hrun) as Ht.
  destruct (tstep_frame L g) as (Hc & Hw). unfold mu. rewrite Hc, Hw. lia.
Qed.

Theorem step_decreases : forall L st a,
  step PNew L st a <> st -> (mu L (step PNew L st a) < mu L st)%nat.
Proof.
  intros L [g ws] a Hch. destruct a as [i | |].
  - cbn [step] in Hch.
    destruct (nth_error ws i) as [w|] eqn:Hn; [|contradiction Hch; reflexivity].
    apply (wstep_mu L g ws i w Hn). intros ->.
    destruct (wupd_split ws i WDone Hn) as (l1 & l2 & He & Hu).
    apply Hch. cbn [wstep]. rewrite Hu, <- He. reflexivity.
  - cbn [step] in *. apply kstep_mu. intros He. apply Hch. rewrite He. reflexivity.
  - cbn [step] in *. destruct (task_running (g_task g)) eqn:Hrun.
    + apply tstep_mu, Hrun.
    + contradiction Hch. unfold tstep. destruct (g_task g); try discriminate Hrun; reflexivity.
Qed.

Lemma not_done_nth : forall ws,
  forallb is_done ws = false ->
  exists i w, nth_error ws i = Some w /\ w <> WDone.
Proof.
  induction ws as [|x r IH]; intros Hf.
  - discriminate Hf.
  - cbn [forallb] in Hf. destruct (is_done x) eqn:Hx.
    + cbn in Hf. destruct (IH Hf) as (i & w & Hn & Hw).
      exists (S i), w. split; [exact Hn | exact Hw].
    + exists 0%nat, x. split; [reflexivity|].
      intros He. subst x. discriminate Hx.
Qed.

Lemma mu_lt_neq : forall L st st', (mu L st' < mu L st)%nat -> st' <> st.
Proof. intros L st st' Hlt ->. exact (Nat.lt_irrefl _ Hlt). Qed.

(* A state that is not terminal always has an actor whose step changes the
   state (this holds in every state, the invariant is not even needed):
   a writer that is not done and a running task lower the measure; with no
   task running the worker can move as soon as it has or can get a hint. *)
Theorem progress_any : forall L g ws,
  terminal (g, ws) = false -> exists a, step PNew L (g, ws) a <> (g, ws).
Proof.
  intros L g ws Ht. unfold terminal in Ht.
  destruct (forallb is_done ws) eqn:Hdone.
  2:{ destruct (not_done_nth ws Hdone) as (i & w & Hn & Hw).
      exists (AW i). apply (mu_lt_neq L). exact (wstep_mu L g ws i w Hn Hw). }
  destruct (task_running (g_task g)) eqn:Hrun.
  - exists AT. apply (mu_lt_neq L), tstep_mu, Hrun.
  - exists AK. cbn [step]. unfold kstep. rewrite Hrun. cbn [andb negb] in *.
    intros Heq. injection Heq as Heq. apply (f_equal g_worker) in Heq.
    destruct (g_worker g).
    + destruct (g_chan g) as [|n]; [discriminate Ht|]. discriminate Heq.
    + discriminate Heq.
    + discriminate Heq.
Qed.

Theorem progress : forall L g ws,
  Inv L (g, ws) -> terminal (g, ws) = false ->
  exists a, step PNew L (g, ws) a <> (g, ws).
Proof. intros L g ws _ Ht. exact (progress_any L g ws Ht). Qed.

Fixpoint all_effective (L : N) (st : glob * list wthread) (sched : list actor)
  : Prop :=
  match sched with
  | [] => True
  | a :: r => step PNew L st a <> st /\ all_effective L (step PNew L st a) r
  end.

Theorem effective_steps_bounded : forall L sched st,
  all_effective L st sched -> (length sched <= mu L st)%nat.
Proof.
  intros L sched. induction sched as [|a r IH]; intros st He.
  - cbn [length]. lia.
  - destruct He as [Hch Hr]. cbn [length].
    pose proof (step_decreases L st a Hch) as Hd.
    pose proof (IH _ Hr) as Hl. lia.
Qed.

(* From every state (reachable or not) some schedule drives PNew to a
   terminal state; by the main theorem (for reachable states) the dirty
   count is then within the limit. *)
Theorem terminal_reachable : forall L st,
  exists sched, terminal (run PNew L st sched) = true.
Proof.
  intros L st. remember (mu L st) as n eqn:Hn. revert st Hn.
  induction n as [n IH] using lt_wf_ind. intros [g ws] Hn.
  destruct (terminal (g, ws)) eqn:Ht.
  - exists []. exact Ht.
  - destruct (progress_any L g ws Ht) as [a Ha].
    pose proof (step_decreases L (g, ws) a Ha) as Hd.
    destruct (IH (mu L (step PNew L (g, ws) a)) ltac:(lia) _ eq_refl) as [r Hr].
    exists (a :: r). exact Hr.
Qed.

Corollary eventually_synced : forall L b ws pre, fresh ws ->
  exists post,
    let '(g, ws') := run PNew L (init b ws) (pre ++ post) in
    terminal (g, ws') = true /\ g_size g - g_synced g <= L.
Proof.
  intros L b ws pre _.
  destruct (terminal_reachable L (run PNew L (init b ws) pre)) as [post Hp].
  exists post.
  pose proof (no_stuck_dirty_bytes L b ws (pre ++ post)) as Hs.
  unfold run in *. rewrite fold_left_app in *.
  destruct (fold_left (step PNew L) post (fold_left (step PNew L) pre (init b ws)))
    as [g ws'].
  split; [exact Hp | exact (Hs Hp)].
Qed.

Print Assumptions no_stuck_dirty_bytes.
Print Assumptions old_protocol_refuted.
Print Assumptions new_loop_old_gate_refuted.
Print Assumptions progress.
Print Assumptions step_decreases.
Print Assumptions eventually_synced.
Print Assumptions effective_steps_bounded.
