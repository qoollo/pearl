(* C08. Every schedule of client programs is a sequential history that keeps each client's program order (the lock makes
   each operation one step). The channel protocol between writers and the maintenance worker: with `try_send` for the
   repeatable hints no writer ever blocks under the storage lock and the queue stays within its capacity, so no state
   is a deadlock; the protocol with a blocking `send` reaches one, for every capacity, and cannot leave it. *)
Require Import Pearl.Base.Prelude Pearl.Storage.Model Pearl.Storage.Spec Pearl.Conc.Steps.

Section K.
Variable K : N.
Variable cfg : config.

Lemma run_sched_is_sequential : forall sched s progs,
  fst (run_sched K cfg s progs sched) = fst (run K cfg s (linearization progs sched)) /\
  map snd (snd (run_sched K cfg s progs sched)) = snd (run K cfg s (linearization progs sched)).
Proof.
  induction sched as [|c rest IH]; intros s progs; cbn [run_sched linearization]; [split; reflexivity|].
  destruct (take_op progs c) as [[o progs']|]; [|apply IH].
  cbn [run]. destruct (step_q K cfg s o) as [s' x] eqn:E.
  specialize (IH s' progs'). destruct (run_sched K cfg s' progs' rest) as [s'' xs].
  destruct (run K cfg s' (linearization progs' rest)) as [t ys]. cbn [fst snd map] in *.
  destruct IH as [IH1 IH2]. split; [exact IH1|f_equal; exact IH2].
Qed.

(* the operations of client [me] in the linearization *)
Fixpoint client_ops (progs : list (list op)) (sched : list nat) (me : nat) : list op :=
  match sched with
  | [] => []
  | c :: rest =>
    match take_op progs c with
    | None => client_ops progs rest me
    | Some (o, progs') => if Nat.eqb c me then o :: client_ops progs' rest me else client_ops progs' rest me
    end
  end.

Lemma take_op_S p r c :
  take_op (p :: r) (S c) = match take_op r c with Some (o, r') => Some (o, p :: r') | None => None end.
Proof. destruct p; reflexivity. Qed.

Lemma take_op_nth progs c o progs' : take_op progs c = Some (o, progs') ->
  nth c progs [] = o :: nth c progs' [] /\ forall d, d <> c -> nth d progs' [] = nth d progs [].
Proof.
  revert c o progs'. induction progs as [|p r IH]; intros c o progs' H; [destruct c; discriminate|].
  destruct c as [|c].
  - destruct p as [|o0 p0]; cbn in H; [discriminate|]. inversion H; subst. split; [reflexivity|].
    intros d Hd. destruct d; [contradiction|reflexivity].
  - rewrite take_op_S in H. destruct (take_op r c) as [[o1 r']|] eqn:E; [|discriminate].
    inversion H; subst. destruct (IH c o r' E) as [H1 H2]. split; [exact H1|].
    intros d Hd. destruct d; [reflexivity|]. cbn [nth]. apply H2. congruence.
Qed.

Lemma client_order_preserved : forall sched progs me,
  exists rest, nth me progs [] = client_ops progs sched me ++ rest.
Proof.
  induction sched as [|c rest IH]; intros progs me; cbn [client_ops].
  - exists (nth me progs []). reflexivity.
  - destruct (take_op progs c) as [[o progs']|] eqn:E; [|apply IH].
    destruct (take_op_nth progs c o progs' E) as [H1 H2].
    destruct (IH progs' me) as [r Hr]. exists r.
    destruct (Nat.eqb_spec c me) as [->|Hne].
    + rewrite H1, Hr. reflexivity.
    + rewrite <- Hr. symmetry. apply H2. congruence.
Qed.

End K.

(* With duplicates disallowed the code's write is two steps, check then append (finding F12). In the model's own
   operations: the check is OContains under cfg_nodup, the unconditional append is OWrite under cfg_dup. *)
Definition cfg_nodup : config := {| c_dup := false; c_maxrec := 1000; c_maxsize := 1000000 |}.
Definition cfg_dup : config := {| c_dup := true; c_maxrec := 1000; c_maxsize := 1000000 |}.

Lemma preach_old_trans cap a b c : preach_old cap a b -> preach_old cap b c -> preach_old cap a c.
Proof. induction 1 as [|x y z Hs Hr IH]; intros H; [exact H|]. econstructor 2; [exact Hs|apply IH, H]. Qed.

(* pstep_old, for EVERY channel capacity: cap + 1 writers and one rotation request reach a deadlocked state *)
Lemma f10_old_protocol_deadlocks : forall cap, 0 < cap ->
  exists s, preach_old cap proto_init s /\ deadlocked cap s.
Proof.
  intros cap Hc. unfold proto_init.
  assert (Hfill : forall n q w, q + N.of_nat n <= cap ->
            preach_old cap {| p_blocked_senders := 0; p_queue := q; p_worker_waits_write := w |}
                       {| p_blocked_senders := 0; p_queue := q + N.of_nat n; p_worker_waits_write := w |}).
  { induction n as [|n IH]; intros q w Hq.
    - replace (q + N.of_nat 0) with q by lia. constructor.
    - econstructor 2; [apply POSend; cbn; lia|]. cbn [p_blocked_senders p_queue p_worker_waits_write].
      replace (q + N.of_nat (S n)) with ((q + 1) + N.of_nat n) by lia. apply IH. lia. }
  (* fill the channel; the worker takes a request and waits for the write lock; one more send refills the channel;
     the next writer blocks *)
  eexists. split.
  - eapply preach_old_trans; [apply (Hfill (N.to_nat cap) 0 false); lia|].
    econstructor 2; [apply POWorkerTake; cbn; [lia|reflexivity]|].
    econstructor 2; [apply POSend; cbn; lia|].
    econstructor 2; [apply POBlock; cbn; lia|].
    constructor.
  - unfold deadlocked. cbn. repeat split; lia.
Qed.

(* and there a deadlocked state is a trap: the only possible move is one more writer blocking *)
Lemma old_deadlocked_is_trap cap s : deadlocked cap s -> forall s', pstep_old cap s s' -> deadlocked cap s'.
Proof.
  intros (Hb & Hq & Hw) s' H. inversion H; subst; unfold deadlocked; cbn in *; try lia; try congruence.
  split; [lia|]. split; assumption.
Qed.

Lemma preach_inv cap (P : proto -> Prop) :
  (forall a b, pstep cap a b -> P a -> P b) -> forall a b, preach cap a b -> P a -> P b.
Proof. intros Hs a b H. induction H as [|x y z Hxy Hr IH]; intros H0; [exact H0|]. apply IH, (Hs x y Hxy H0). Qed.

(* pstep: no writer ever waits in send while it holds the lock, and the queue never exceeds the capacity ... *)
Lemma reachable_safe cap s : preach cap proto_init s -> p_blocked_senders s = 0 /\ p_queue s <= cap.
Proof.
  intros H. apply (preach_inv cap (fun s => p_blocked_senders s = 0 /\ p_queue s <= cap)) in H; [exact H| |].
  - intros a b Hs [Hb Hq]. inversion Hs; subst; cbn; lia.
  - split; [reflexivity|apply N.le_0_l].
Qed.

(* ... hence no reachable state is deadlocked, for every capacity and every number of writers, and a worker waiting
   for the write lock is always granted it *)
Lemma never_deadlocked cap s : preach cap proto_init s -> ~ deadlocked cap s.
Proof. intros H (Hb & _). destruct (reachable_safe cap s H) as [H0 _]. lia. Qed.

Lemma worker_gets_the_lock cap s : preach cap proto_init s -> p_worker_waits_write s = true ->
  exists s', pstep cap s s' /\ p_worker_waits_write s' = false.
Proof.
  intros H Hw. eexists. split; [apply PWorkerGetsLock; [exact Hw | apply (reachable_safe cap s H)]|reflexivity].
Qed.
