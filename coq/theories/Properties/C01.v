(* C01 Latest-version read: read/contains return the top-ranked record of a key. Statements: each follows in a line from the layers below; computed examples are evaluated here. *)
Require Import Pearl.Base.Prelude Pearl.Storage.Model Pearl.Storage.Spec Pearl.Storage.Inv
               Pearl.Storage.IndexProofs Pearl.Storage.ReadProofs Pearl.Storage.Theorems.

(* After EVERY history `ops` of writes / deletes (any timestamps, metas, sizes), lifecycle and
   maintenance operations, background requests, restarts (with or without close, eager or lazy),
   index removals and crash damage to blob files between two sessions, for every key length K, every
   configuration and every key k: read/contains (Storage::get_latest_entry without meta) return the
   specification's answer on the log.
   No proviso on finding F2 (a write acknowledged with Err after its bytes were appended to a blob
   whose index is on disk): no history leads to it (C01_no_index_error_state). *)
Theorem C01_read_latest :
  forall (K : N) (cfg : config) (ops : list op) (k : N),
    get_latest_entry (reach K cfg ops) k None = spec_read (abs (reach K cfg ops)) k.
Proof. exact reach_read_latest. Qed.

(* what "top-ranked" means: a record of the key with maximal timestamp, and the LAST such record in log
   order ... *)
Theorem C01_top_ranked_is_max :
  forall l : list rec,
    match top_ranked l with
    | None => l = []
    | Some r => exists l1 l2, l = l1 ++ r :: l2 /\
                (forall x, In x l1 -> r_ts x <= r_ts r) /\ (forall x, In x l2 -> r_ts x < r_ts r)
    end.
Proof. exact top_ranked_spec. Qed.

(* ... where log order is blob creation order (ids strictly increasing), then append order *)
Theorem C01_log_is_ordered_by_blob_id :
  forall (K : N) (cfg : config) (ops : list op),
    increasing (map b_id (blobs_in_order (reach K cfg ops))).
Proof. exact (fun K cfg ops => proj1 (reach_IdsOk K cfg ops)). Qed.

(* the state-level statement, for any state whose indexes describe their blobs *)
Theorem C01_read_latest_state :
  forall (k : N) (s : storage), IdxInv s -> get_latest_entry s k None = spec_read (abs s) k.
Proof. exact read_latest. Qed.

(* the ghost flag of the model (a record was appended to a blob whose index is on disk) is never
   raised: the active blob's index is always in memory (InvProofs.ActiveInMemory) *)
Theorem C01_no_index_error_state :
  forall (K : N) (cfg : config) (ops : list op), s_f2 (reach K cfg ops) = false.
Proof. exact never_f2. Qed.

(* non-vacuity: a concrete history with a tie across two blobs and a deletion marker; and the history
   of finding F2 (close_active; restore_active; write): restore_active loads the index of the blob it
   makes active (commit ad9222f of the code), the write is acknowledged and read back (by computation) *)
Definition c01_cfg : config := {| c_dup := true; c_maxrec := 1000; c_maxsize := 1000000 |}.
Definition c01_hist : list op :=
  [OOpen false; OWrite 1 7 None 8 5 1; OCloseActive; OWrite 1 7 None 8 5 2; ODelete 1 5 None 8 true; OClose; OOpen true].
Example C01_nonvacuous :
  s_f2 (reach 4 c01_cfg c01_hist) = false /\
  get_latest_entry (reach 4 c01_cfg c01_hist) 1 None = Found (mk_rec 1 7 false None 8 5 2).
Proof. vm_compute. split; reflexivity. Qed.

Definition c01_f2_hist : list op :=
  [OOpen false; OWrite 1 7 None 8 5 1; OCloseActive; ORestoreActive; OWrite 1 9 None 8 5 2].
Example C01_former_F2_history :
  s_f2 (reach 4 c01_cfg c01_f2_hist) = false /\
  snd (run 4 c01_cfg init_storage c01_f2_hist) = [RUnit; RUnit; RUnit; RUnit; RUnit] /\
  get_latest_entry (reach 4 c01_cfg c01_f2_hist) 1 None = Found (mk_rec 1 9 false None 8 5 2) /\
  get_latest_entry (reach 4 c01_cfg c01_f2_hist) 1 None = spec_read (abs (reach 4 c01_cfg c01_f2_hist)) 1.
Proof. vm_compute. repeat split; reflexivity. Qed.

Print Assumptions C01_read_latest.
Print Assumptions C01_top_ranked_is_max.
Print Assumptions C01_log_is_ordered_by_blob_id.
Print Assumptions C01_read_latest_state.
Print Assumptions C01_no_index_error_state.
