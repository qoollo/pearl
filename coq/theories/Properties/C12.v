(* C12 Sync discipline: bounded un-synced data and write ordering for durability. Statements: each follows in a line from the layers below; computed examples are evaluated here. *)
Require Import Pearl.Base.Prelude Pearl.Storage.Model Pearl.Storage.Spec Pearl.Storage.NoHarmProofs Pearl.Io.Trace Pearl.Io.TraceProofs.

Require Pearl.Generated.Facts.
Require Pearl.Conc.SyncAcct Pearl.Conc.SyncAcctProofs.
Module SA := Pearl.Conc.SyncAcct.
Module SAP := Pearl.Conc.SyncAcctProofs.
Require Pearl.Conc.SyncHint Pearl.Conc.SyncHintProofs.
Module SH := Pearl.Conc.SyncHint.
Module SHP := Pearl.Conc.SyncHintProofs.
(* EVERY history of the storage model (all operations, restarts, drops, background requests, dumps at
   quiescence points) produces a file-operation trace that the three predicates accept: appends land at
   the end of their blob, a blob's header is synced before any record goes into it, and an index file is
   marked complete only when every byte of its blob is synced.
   (`no_cut ops`: the trace is what the storage asks of the file system; a blob file cut by a crash behind its back
   -- OCut, no event -- makes the next append land below the length the trace has followed.) *)
Theorem C12_every_history_trace_accepted :
  forall (K : N) (cfg : config) (ops : list op), no_cut ops -> judge (run_trace K cfg init_storage ops) = true.
Proof. exact history_trace_accepted. Qed.

(* what acceptance means, in terms of the file-state machine (length, synced length) of the trace itself;
   the SAME predicates, extracted, judge the trace recorded from the real crate on every check run *)
Theorem C12_header_synced_before_records :
  forall (tr1 tr2 : list ev) (i off len : N),
    judge_from ev_header_synced [] (tr1 ++ EvAppend (FBlob, i) off len :: tr2) = true -> off <> 0 ->
    match fget (run_evs [] tr1) (FBlob, i) with Some (_, sy) => 20 <= sy | None => True end.
Proof. exact (header_synced_meaning []). Qed.

Theorem C12_index_complete_only_after_blob_synced :
  forall (tr1 tr2 : list ev) (i len : N),
    judge_from ev_index_after_sync [] (tr1 ++ EvWriteAt (FIndex, i) 0 len :: tr2) = true ->
    match fget (run_evs [] tr1) (FBlob, i) with Some (sz, sy) => sz = sy | None => True end.
Proof. exact (index_after_sync_meaning []). Qed.

(* the blob/index protocol (create, header, sync, any number of records, dump) is accepted and leaves no
   un-synced byte of the blob *)
Theorem C12_protocol_accepted :
  forall (K id : N) (rs : list rec), judge (open_new_evs id ++ appends_from K id 20 rs ++ dump_evs id) = true.
Proof. exact protocol_accepted. Qed.
Theorem C12_protocol_clean :
  forall (K id : N) (rs : list rec),
    dirty_of (open_new_evs id ++ appends_from K id 20 rs ++ dump_evs id) (FBlob, id) = 0.
Proof. exact protocol_clean. Qed.

(* after the predicted trace every blob of the final model state has its file, of the blob's length, with the header
   synced (that no other blob file is left is the second half of FR, in C12_trace_after_crash_accepted) *)
Theorem C12_trace_matches_state :
  forall (K : N) (cfg : config) (ops : list op) (b : blob),
    no_cut ops ->
    In b (blobs_in_order (fst (run K cfg init_storage ops))) ->
    exists sy, fget (run_evs [] (run_trace K cfg init_storage ops)) (FBlob, b_id b) = Some (blob_size K b, sy) /\ 20 <= sy.
Proof. exact history_files_match. Qed.

(* with crash damage in the history: judged from a file state that matches the directory as the crash left it (FR: every
   blob file with the length the model gives it and a synced header, no other blob file), the trace of every
   continuation without further damage is accepted and its files match the final state *)
Theorem C12_trace_after_crash_accepted :
  forall (K : N) (cfg : config) (ops1 ops2 : list op) (st : fstate),
    let s := fst (run K cfg init_storage ops1) in
    no_cut ops2 -> s_bad s = [] -> FR K (blobs_in_order s) st ->
    judge_from ev_harmless st (run_trace K cfg s ops2) && judge_from ev_header_synced st (run_trace K cfg s ops2)
      && judge_from ev_index_after_sync st (run_trace K cfg s ops2) = true /\
    FR K (blobs_in_order (fst (run K cfg s ops2))) (run_evs st (run_trace K cfg s ops2)).
Proof. exact trace_after_crash_accepted. Qed.
(* why `no_cut`: the trace has no event for the damage, and the append after the restart lands below the length followed *)
Theorem C12_cut_trace_not_accepted :
  let cfg := {| c_dup := true; c_maxrec := 1000; c_maxsize := 1000000 |} in
  judge (run_trace 4 cfg init_storage
           [OOpen false; OWrite 1 7 None 8 5 1; OWrite 2 8 None 8 5 2; ODrop; OCut 0 (Some 1%nat); OOpen false;
            OWrite 3 9 None 8 5 3]) = false /\
  judge (run_trace 4 cfg init_storage
           [OOpen false; OWrite 1 7 None 8 5 1; OWrite 2 8 None 8 5 2; ODrop; OOpen false; OWrite 3 9 None 8 5 3]) = true.
Proof. exact cut_trace_not_accepted. Qed.

(* a trace that marks the index complete before the blob was synced is rejected (the lengths are arbitrary: the predicate
   reads the offset of the index write and the state of the blob file) *)
Theorem C12_unsynced_index_rejected :
  judge_from ev_index_after_sync []
    (open_new_evs 0 ++ [EvAppend (FBlob, 0) 20 74; EvCreate (FIndex, 0); EvAppend (FIndex, 0) 0 249; EvWriteAt (FIndex, 0) 0 83]) = false.
Proof. vm_compute. reflexivity. Qed.

(* The accounting of un-synced bytes under concurrency (Conc/SyncAcct.v): any number of appends (count itself in
   flight, reserve, write, read `size`, leave; the last one out raises `written_size`) and of syncs (read
   `written_size`, fdatasync, raise `synced_size`), every interleaving of their atomic steps, any lengths. `g_durable` is
   the ghost "everything that had landed when a completed fdatasync began"; `clp` the contiguous landed prefix. *)
(* what is counted as synced is durable, what is durable has landed: `dirty_bytes()` never under-reports *)
Theorem C12_synced_never_exceeds_durable : forall (b : N) (ths : list SA.thread) (sched : list nat),
  SA.fresh ths ->
  let '(g, ths') := SA.run SA.PNew (SA.init b ths) sched in
  (SA.g_synced g <= SA.g_durable g /\ SA.g_durable g <= SA.clp ths' (SA.g_size g) /\ SA.g_written g <= SA.clp ths' (SA.g_size g))%N.
Proof. exact SAP.acct_sound. Qed.
Theorem C12_dirty_bytes_overapproximate : forall (b : N) (ths : list SA.thread) (sched : list nat),
  SA.fresh ths ->
  let '(g, _) := SA.run SA.PNew (SA.init b ths) sched in (SA.g_size g - SA.g_synced g >= SA.g_size g - SA.g_durable g)%N.
Proof. exact SAP.dirty_overapproximates. Qed.
(* a sync records `written_size` (since commit 91f0177 of the code). Were it to record `size` (POldSyncLoadsSize), bytes
   that no sync covers would be counted as synced (finding F25; replayed on the crate by regress/C12/f25_*.txt) *)
Theorem C12_old_accounting_refuted : exists (b : N) (ths : list SA.thread) (sched : list nat),
  SA.fresh ths /\ (let '(g, _) := SA.run SA.POldSyncLoadsSize (SA.init b ths) sched in (SA.g_durable g < SA.g_synced g)%N).
Proof. exact SAP.old_protocol_refuted. Qed.
(* the order inside the end of an append matters: reading `size` after the decrement is refuted as well *)
Theorem C12_load_after_decrement_refuted : exists (b : N) (ths : list SA.thread) (sched : list nat),
  SA.fresh ths /\ (let '(g, _) := SA.run SA.PLoadAfterDecrement (SA.init b ths) sched in (SA.g_durable g < SA.g_synced g)%N).
Proof. exact SAP.load_after_decrement_refuted. Qed.
(* with appends serialised by the caller (the upgradable lock of Blob::write: `sstep` lets an append start only when
   none is in flight) the counter is exact whenever no append is in flight, and a sync that runs then leaves no
   un-synced byte: the "after an explicit fsyncdata no un-synced bytes remain" clause *)
Theorem C12_single_writer_precise : forall (b : N) (ths : list SA.thread) (sched : list nat),
  SA.fresh ths ->
  let '(g, _) := fold_left SA.sstep sched (SA.init b ths) in SA.g_pending g = 0%N -> SA.g_written g = SA.g_size g.
Proof. exact SAP.single_writer_precise. Qed.
Theorem C12_sync_when_quiet_covers_everything : forall (b : N) (ths : list SA.thread) (sched : list nat),
  SA.fresh ths ->
  let '(g, ths') := fold_left SA.sstep sched (SA.init b ths) in
  SA.g_pending g = 0%N ->
  let k := length ths' in
  let '(g2, ths2) := SA.sstep (SA.sstep (SA.sstep (g, ths' ++ SA.TS SA.SNew :: nil) k) k) k in
  SA.g_synced g2 = SA.g_size g2 /\ SA.g_durable g2 = SA.g_size g2 /\ SA.g_size g2 = SA.g_size g /\ ths2 = ths' ++ SA.TS SA.SDone :: nil.
Proof. exact SAP.sync_when_quiet_covers_everything. Qed.
(* without that lock the counter stays safe but may lag behind (documented, not a violation) *)
Theorem C12_concurrent_appends_may_underestimate : exists (b : N) (ths : list SA.thread) (sched : list nat),
  SA.fresh ths /\ (let '(g, ths') := SA.run SA.PNew (SA.init b ths) sched in
    forallb SA.is_done ths' = true /\ SA.g_pending g = 0%N /\ (SA.g_written g < SA.g_size g)%N).
Proof. exact SAP.concurrent_appends_may_underestimate. Qed.
(* the hypotheses are met by runs that finish: 3 appends, 2 syncs, base size 100 *)
Example C12_accounting_example : SA.fresh SAP.ex_ths /\
  (forallb SA.is_done (snd (SA.run SA.PNew (SA.init 100 SAP.ex_ths) SAP.ex_sched)) = true) /\
  (SA.g_synced (fst (SA.run SA.PNew (SA.init 100 SAP.ex_ths) SAP.ex_sched)) = 123%N) /\
  (SA.g_size (fst (SA.run SA.PNew (SA.init 100 SAP.ex_ths) SAP.ex_sched)) = 123%N).
Proof. rewrite SAP.ex_final. repeat split; reflexivity. Qed.

(* "Whenever the un-synced bytes exceed the limit a sync is performed without further client action"
   (Conc/SyncHint.v): any number of client writes of any lengths, the maintenance worker and the background sync task,
   every interleaving of their atomic steps. A terminal state is one in which nobody has anything left to do. *)
Theorem C12_no_stuck_dirty_bytes : forall (L b : N) (ws : list SH.wthread) (sched : list SH.actor),
  SH.fresh ws ->
  let '(g, ws') := SH.run SH.PNew L (SH.init b ws) sched in
  SH.terminal (g, ws') = true -> (SH.g_size g - SH.g_synced g <= L)%N.
Proof. intros L b ws sched _. exact (SHP.no_stuck_dirty_bytes L b ws sched). Qed.
(* ... and a terminal state is always reached: every state-changing step decreases a measure (no livelock of the
   look-again loop, the worker's wait for the old task always ends), a non-terminal state always has an enabled actor,
   and every prefix of a run can be completed to a terminal state, where the bytes are within the limit *)
Theorem C12_sync_protocol_progress : forall (L : N) (g : SH.glob) (ws : list SH.wthread),
  SH.terminal (g, ws) = false -> exists a : SH.actor, SH.step SH.PNew L (g, ws) a <> (g, ws).
Proof. exact SHP.progress_any. Qed.
Theorem C12_sync_protocol_terminates : forall (L : N) (st : SH.glob * list SH.wthread) (a : SH.actor),
  SH.step SH.PNew L st a <> st -> (SHP.mu L (SH.step SH.PNew L st a) < SHP.mu L st)%nat.
Proof. exact SHP.step_decreases. Qed.
Theorem C12_eventually_synced : forall (L b : N) (ws : list SH.wthread) (pre : list SH.actor),
  SH.fresh ws ->
  exists post : list SH.actor,
    let '(g, ws') := SH.run SH.PNew L (SH.init b ws) (pre ++ post) in
    SH.terminal (g, ws') = true /\ (SH.g_size g - SH.g_synced g <= L)%N.
Proof. exact SHP.eventually_synced. Qed.
(* under POld (Conc/SyncHint.v: the task does not look again after lowering its flag) a write that crosses the limit while
   the flag is up is never synced (finding F13; replayed on the crate by regress/C12/f13_*.txt) *)
Theorem C12_old_sync_protocol_refuted : exists (L b : N) (ws : list SH.wthread) (sched : list SH.actor),
  SH.fresh ws /\ (let '(g, ws') := SH.run SH.POld L (SH.init b ws) sched in
    SH.terminal (g, ws') = true /\ (L < SH.g_size g - SH.g_synced g)%N).
Proof. exact SHP.old_protocol_refuted. Qed.
(* the look-again loop alone is not enough: with the old worker gate (a request is dropped while a task exists that has
   not returned yet) the request of a write that saw the flag down can still be lost *)
Theorem C12_new_loop_old_gate_refuted : exists (L b : N) (ws : list SH.wthread) (sched : list SH.actor),
  SH.fresh ws /\ (let '(g, ws') := SH.run SH.PNewLoopOldGate L (SH.init b ws) sched in
    SH.terminal (g, ws') = true /\ (L < SH.g_size g - SH.g_synced g)%N).
Proof. exact SHP.new_loop_old_gate_refuted. Qed.
(* the premise is met on the way: a run of three writes, limit 10, that is over the limit midway and ends within it *)
Example C12_sync_protocol_example : SH.fresh SHP.ex_ws /\
  (let '(g, ws') := SH.run SH.PNew 10 (SH.init 0 SHP.ex_ws) SHP.ex_sched in
    SH.terminal (g, ws') = true /\ SH.g_size g = 38%N /\ SH.g_synced g = 35%N /\ (SH.g_size g - SH.g_synced g <= 10)%N /\ (0 < SH.g_synced g)%N).
Proof. exact SHP.new_protocol_run. Qed.

(* Structural facts re-extracted from the Rust source on every run (tools/extract_src.py, Generated/Facts.v): orderings
   inside the code that the models above assume. A change of the code that invalidates one makes its boolean `false`. *)
(* a writer cannot append to a blob between its last sync and its move to the closed blobs *)
Theorem C12_source_close_syncs_under_exclusive_lock : Pearl.Generated.Facts.CLOSE_SYNCS_UNDER_EXCLUSIVE_LOCK = true.
Proof. reflexivity. Qed.
(* bytes appended while a sync is in flight are not counted as synced: what a sync records is `written_size` as read
   before the sync started (step S1 of Conc/SyncAcct.v) *)
Theorem C12_source_synced_size_before_sync : Pearl.Generated.Facts.SYNCED_SIZE_CAPTURED_BEFORE_SYNC = true.
Proof. reflexivity. Qed.
(* an append counts itself as in flight before it reserves its range (steps A1, A2), and `written_size` is raised to the
   `size` read before the decrement only by the append that was the last one in flight (steps A4, A5) *)
Theorem C12_source_append_in_flight_then_reserve : Pearl.Generated.Facts.APPEND_RESERVES_THEN_WRITES = true.
Proof. reflexivity. Qed.
Theorem C12_source_written_size_only_when_quiet : Pearl.Generated.Facts.WRITTEN_SIZE_ADVANCES_ONLY_WHEN_QUIET = true.
Proof. reflexivity. Qed.
(* the single-writer discipline assumed by C12_single_writer_precise (`sstep`: an append starts only when none is in
   flight) is what the code does since commit 30498d9 *)
Theorem C12_source_append_waits_for_appends_in_flight : Pearl.Generated.Facts.APPEND_WAITS_FOR_APPENDS_IN_FLIGHT = true.
Proof. reflexivity. Qed.
(* a failed sync does not switch the threshold syncs off *)
Theorem C12_source_fsync_flag_is_a_guard : Pearl.Generated.Facts.FSYNC_FLAG_IS_A_GUARD = true.
Proof. reflexivity. Qed.
(* the shape of the sync-hint protocol that Conc/SyncHint.v models: the background sync looks again after lowering its
   flag (steps T4, T5), every access to the flag is SeqCst, the worker drops a request only while a task exists AND the
   flag is up *)
Theorem C12_source_background_sync_looks_again : Pearl.Generated.Facts.BACKGROUND_SYNC_LOOKS_AGAIN = true.
Proof. reflexivity. Qed.
Theorem C12_source_fsync_flag_is_seqcst : Pearl.Generated.Facts.FSYNC_FLAG_IS_SEQCST = true.
Proof. reflexivity. Qed.
Theorem C12_source_worker_replaces_task_past_its_last_look : Pearl.Generated.Facts.WORKER_REPLACES_TASK_PAST_ITS_LAST_LOOK = true.
Proof. reflexivity. Qed.

Print Assumptions C12_every_history_trace_accepted.
Print Assumptions C12_no_stuck_dirty_bytes.
Print Assumptions C12_sync_protocol_progress.
Print Assumptions C12_sync_protocol_terminates.
Print Assumptions C12_eventually_synced.
Print Assumptions C12_old_sync_protocol_refuted.
Print Assumptions C12_new_loop_old_gate_refuted.
Print Assumptions C12_sync_protocol_example.
Print Assumptions C12_source_background_sync_looks_again.
Print Assumptions C12_source_fsync_flag_is_seqcst.
Print Assumptions C12_source_worker_replaces_task_past_its_last_look.
Print Assumptions C12_synced_never_exceeds_durable.
Print Assumptions C12_dirty_bytes_overapproximate.
Print Assumptions C12_old_accounting_refuted.
Print Assumptions C12_load_after_decrement_refuted.
Print Assumptions C12_single_writer_precise.
Print Assumptions C12_sync_when_quiet_covers_everything.
Print Assumptions C12_concurrent_appends_may_underestimate.
Print Assumptions C12_accounting_example.
Print Assumptions C12_header_synced_before_records.
Print Assumptions C12_index_complete_only_after_blob_synced.
Print Assumptions C12_protocol_accepted.
Print Assumptions C12_protocol_clean.
Print Assumptions C12_trace_matches_state.
Print Assumptions C12_source_synced_size_before_sync.
Print Assumptions C12_source_fsync_flag_is_a_guard.
Print Assumptions C12_source_append_in_flight_then_reserve.
Print Assumptions C12_source_written_size_only_when_quiet.
Print Assumptions C12_trace_after_crash_accepted.
Print Assumptions C12_cut_trace_not_accepted.
Print Assumptions C12_source_close_syncs_under_exclusive_lock.
Print Assumptions C12_source_append_waits_for_appends_in_flight.
