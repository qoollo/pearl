(* C04 Representation transparency: lifecycle and maintenance never change answers. Statements: each follows in a line from the layers below; computed examples are evaluated here. *)
Require Import Pearl.Base.Prelude Pearl.Storage.Model Pearl.Storage.Spec Pearl.Storage.Inv
               Pearl.Storage.ReadProofs Pearl.Storage.InvProofs Pearl.Storage.Theorems.
Require Pearl.Generated.Facts.

(* After every history, an operation that is not a write or a delete (nor damage done to a blob file by a crash between
   two sessions, OCut, which is not an operation of the storage: is_data_op counts it with them) -- close / create / restore of the
   active blob (direct or through the background worker, applicable or not), force_update with any
   predicate, free_excess_resources, index dumps completing at the quiescence point, sleep, counters,
   close, drop, open, index removal -- leaves the log (the abstraction every query is a function of)
   exactly as it was. (`s_bad (reach K cfg ops) = []`: no blob file was made unreadable by a crash since the last
   start -- always so while the storage is open, C03_open_storage_has_no_unreadable_file; an `open` after such damage
   moves the file away, C06_cut_inside_quarantines.) *)
Theorem C04_log_unchanged :
  forall (K : N) (cfg : config) (ops : list op) (o : op),
    is_data_op o = false -> s_bad (reach K cfg ops) = [] ->
    abs (fst (step_q K cfg (reach K cfg ops) o)) = abs (reach K cfg ops).
Proof. exact reach_nondata_abs. Qed.

(* without proviso, for EVERY history (crash damage included): the log is as it was, except that `open` drops the records
   of the blob files a crash made unreadable (readable_log s = abs s when there is none, readable_log_no_bad) *)
Theorem C04_log_unchanged_or_readable :
  forall (K : N) (cfg : config) (ops : list op) (o : op),
    is_data_op o = false ->
    abs (fst (step_q K cfg (reach K cfg ops) o))
    = match o with OOpen _ => readable_log (reach K cfg ops) | _ => abs (reach K cfg ops) end.
Proof. exact reach_nondata_abs_gen. Qed.
Theorem C04_readable_log_is_the_log_without_damage :
  forall s : storage, s_bad s = [] -> readable_log s = abs s.
Proof. exact readable_log_no_bad. Qed.

Theorem C04_read_unchanged :
  forall (K : N) (cfg : config) (ops : list op) (o : op) (k : N),
    is_data_op o = false -> s_bad (reach K cfg ops) = [] ->
    get_latest_entry (reach K cfg (ops ++ [o])) k None = get_latest_entry (reach K cfg ops) k None.
Proof. exact reach_maint_read. Qed.

(* and the invariant under which every later operation is defined is kept by every operation *)
Theorem C04_invariant_kept :
  forall (K : N) (cfg : config) (ops : list op),
    Inv K (reach K cfg ops).
Proof. exact reach_Inv. Qed.

(* After any of them -- after any history at all -- the storage keeps accepting writes and deletes:
   neither is ever refused with ErrorKind::Index ...
   (Finding F2: close_active; dump; restore_active; write. try_restore_active_blob loads the index of the
   blob it makes active into memory, commit ad9222f of the code; a blob made active with its index on disk
   would take the bytes of the next write and then fail it with ErrorKind::Index.) *)
Theorem C04_still_writable :
  forall (K : N) (cfg : config) (ops : list op) (k ts : N) (meta : option N) (msize dlen dseed : N) (oip : bool),
    snd (step K cfg (reach K cfg ops) (OWrite k ts meta msize dlen dseed)) <> RErr EIndex /\
    snd (step K cfg (reach K cfg ops) (ODelete k ts meta msize oip)) <> RErr EIndex.
Proof. split; [apply write_never_index_error|apply delete_never_index_error]. Qed.

Theorem C04_write_acknowledged :
  forall (K : N) (cfg : config) (ops : list op) (k ts : N) (meta : option N) (msize dlen dseed : N),
    s_open (reach K cfg ops) = true ->
    snd (step K cfg (reach K cfg ops) (OWrite k ts meta msize dlen dseed)) = RUnit.
Proof. exact write_acknowledged. Qed.

(* the history of finding F2, by computation: the write after close_active; (dump at the quiescence
   point); restore_active is acknowledged *)
Definition c04_cfg : config := {| c_dup := true; c_maxrec := 1000; c_maxsize := 1000000 |}.
Example C04_still_writable_former_F2_history :
  snd (step_q 4 c04_cfg (reach 4 c04_cfg [OOpen false; OWrite 1 7 None 8 5 1; OCloseActive; ORestoreActive])
                (OWrite 1 9 None 8 5 2)) = RUnit.
Proof. vm_compute. reflexivity. Qed.

Print Assumptions C04_log_unchanged.
Print Assumptions C04_log_unchanged_or_readable.
Print Assumptions C04_readable_log_is_the_log_without_damage.
Print Assumptions C04_read_unchanged.
Print Assumptions C04_invariant_kept.
Print Assumptions C04_still_writable.
Print Assumptions C04_write_acknowledged.

(* closing a blob into a filter group whose filter was given up (after offload_buffer) must not re-initialise that filter
   from the new blob alone: structural fact re-extracted on every run *)
Theorem C04_source_group_filter_initialised_only_when_empty : Pearl.Generated.Facts.GROUP_FILTER_INITIALISED_ONLY_WHEN_EMPTY = true.
Proof. reflexivity. Qed.
Print Assumptions C04_source_group_filter_initialised_only_when_empty.
