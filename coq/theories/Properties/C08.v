(* C08 Concurrent clients. Statements: each follows in a line from the layers below; computed examples are evaluated here. *)
Require Import Pearl.Base.Prelude Pearl.Storage.Model Pearl.Storage.Spec Pearl.Storage.Theorems Pearl.Conc.Steps
               Pearl.Conc.StepsProofs.

Require Pearl.Generated.Facts.
(* For EVERY schedule of any number of clients, each running any program, the interleaved execution of the
   atomic steps equals a SEQUENTIAL history (its linearization): same final state, same answers in order.
   Hence every answer is the answer of the sequential model at its linearization point (C01/C02), and at
   quiescence the storage equals the sequential model. Atomicity of the steps is argued from lock scopes
   (Conc/Steps.v), not proved; the real scheduler is sampled by the check. *)
Theorem C08_every_interleaving_is_sequential :
  forall (K : N) (cfg : config) (sched : list nat) (s : storage) (progs : list (list op)),
    fst (run_sched K cfg s progs sched) = fst (run K cfg s (linearization progs sched)) /\
    map snd (snd (run_sched K cfg s progs sched)) = snd (run K cfg s (linearization progs sched)).
Proof. exact run_sched_is_sequential. Qed.

(* the linearization respects every client's own order: what it has executed is a prefix of its program *)
Theorem C08_program_order_preserved :
  forall (sched : list nat) (progs : list (list op)) (me : nat),
    exists rest, nth me progs [] = client_ops progs sched me ++ rest.
Proof. exact client_order_preserved. Qed.

(* REFUTED for allow_duplicates = false (finding F12): the duplicate check is a separate step (OContains under
   cfg_nodup), the append that follows it is unconditional (OWrite under cfg_dup). Two clients writing the same fresh
   key, both checks first: both find nothing and both records are stored, which neither sequential order of two
   dup-disallowed writes produces. *)
Theorem C08_duplicate_check_not_atomic_refuted :
  let s0 := fst (run 4 cfg_nodup init_storage [OOpen false]) in
  snd (step_q 4 cfg_nodup s0 (OContains 1)) = RRead NotFound /\
  length (abs (fst (run 4 cfg_dup s0 [OWrite 1 7 None 8 5 1; OWrite 1 8 None 8 5 2]))) = 2%nat /\
  length (abs (fst (run 4 cfg_nodup s0 [OWrite 1 7 None 8 5 1; OWrite 1 8 None 8 5 2]))) = 1%nat /\
  length (abs (fst (run 4 cfg_nodup s0 [OWrite 1 8 None 8 5 2; OWrite 1 7 None 8 5 1]))) = 1%nat.
Proof. vm_compute. repeat split; reflexivity. Qed.

(* "no operation deadlocks", for the lock / channel protocol of write and delete (Conc/Steps.v): since commit
   62ff185 of the code the notifications are sent with try_send, and for EVERY channel capacity and every number of
   writers no writer ever waits in send while it holds the storage lock, no reachable state is deadlocked, the queue
   stays within the capacity and a worker waiting for the write lock is granted it. *)
Theorem C08_no_writer_blocks_under_the_lock :
  forall (cap : N) (s : proto), preach cap proto_init s -> p_blocked_senders s = 0.
Proof. intros cap s H. apply (reachable_safe cap s H). Qed.
Theorem C08_no_deadlock :
  forall (cap : N) (s : proto), preach cap proto_init s -> ~ deadlocked cap s.
Proof. exact never_deadlocked. Qed.
Theorem C08_queue_bounded :
  forall (cap : N) (s : proto), preach cap proto_init s -> p_queue s <= cap.
Proof. intros cap s H. apply (reachable_safe cap s H). Qed.
Theorem C08_worker_gets_the_lock :
  forall (cap : N) (s : proto), preach cap proto_init s -> p_worker_waits_write s = true ->
    exists s', pstep cap s s' /\ p_worker_waits_write s' = false.
Proof. exact worker_gets_the_lock. Qed.

(* with send().await under the lock (`pstep_old`; finding F10) a deadlocked state is reached for every capacity, by
   cap + 1 writers and one rotation request, and is never left *)
Theorem C08_old_protocol_deadlocks :
  forall cap : N, 0 < cap -> exists s, preach_old cap proto_init s /\ deadlocked cap s.
Proof. exact f10_old_protocol_deadlocks. Qed.
Theorem C08_old_deadlock_is_a_trap :
  forall (cap : N) (s : proto), deadlocked cap s -> forall s', pstep_old cap s s' -> deadlocked cap s'.
Proof. exact old_deadlocked_is_trap. Qed.

(* Structural facts re-extracted from the Rust source on every run (tools/extract_src.py, Generated/Facts.v): orderings
   inside the code that the models above assume. A change of the code that invalidates one makes its boolean `false`. *)
(* the protocol `pstep` of Conc/Steps.v (try_send) is the one the code follows *)
Theorem C08_source_hints_never_wait : Pearl.Generated.Facts.HINTS_NEVER_WAIT = true.
Proof. reflexivity. Qed.
(* write does not hold the (fair) storage lock while its duplicate check takes it again *)
Theorem C08_source_dupcheck_before_lock : Pearl.Generated.Facts.WRITE_DUPCHECK_BEFORE_LOCK = true.
Proof. reflexivity. Qed.

Print Assumptions C08_every_interleaving_is_sequential.
Print Assumptions C08_program_order_preserved.
Print Assumptions C08_duplicate_check_not_atomic_refuted.
Print Assumptions C08_no_writer_blocks_under_the_lock.
Print Assumptions C08_no_deadlock.
Print Assumptions C08_queue_bounded.
Print Assumptions C08_worker_gets_the_lock.
Print Assumptions C08_old_protocol_deadlocks.
Print Assumptions C08_old_deadlock_is_a_trap.
Print Assumptions C08_source_hints_never_wait.
Print Assumptions C08_source_dupcheck_before_lock.
