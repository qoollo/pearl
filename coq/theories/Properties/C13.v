(* C13 Background maintenance stays alive: rotation continues and close terminates. Statements: each follows in a line from the layers below. *)
Require Import Pearl.Base.Prelude Pearl.Storage.Model Pearl.Storage.Spec Pearl.Storage.Inv Pearl.Storage.InvProofs
               Pearl.Storage.Theorems Pearl.Storage.WorkerProofs.

Require Pearl.Generated.Facts.
(* In every state of an open storage, EVERY operation of the model -- data operations, direct lifecycle
   calls whether applicable or not, background create/close/restore requests whether applicable or not,
   force_update with any predicate, free_excess, dump completion -- leaves the worker alive; only the end
   of the session (close, drop) stops it. *)
Theorem C13_worker_stays_alive :
  forall (K : N) (cfg : config) (s : storage) (o : op),
    s_open s = true -> s_alive s = true -> ~ ends_session o ->
    s_alive (fst (step_q K cfg s o)) = true.
Proof. exact alive_preserved. Qed.

(* "including background create, close and restore requests made when they cannot apply": such a request
   leaves the worker alive and the log as it was. (Finding F1, commit 62103db of the code: the request is
   logged and ignored; a worker killed by it would be gone, silently, for the rest of the session.) *)
Theorem C13_inapplicable_request_is_harmless :
  forall (K : N) (cfg : config) (s : storage) (o : op),
    s_open s = true -> s_alive s = true -> inapplicable s o ->
    s_alive (fst (step_q K cfg s o)) = true /\ abs (fst (step_q K cfg s o)) = abs s.
Proof. exact inapplicable_harmless. Qed.

(* sharper: before the implicit quiesce the state is the one the request was made in, except that a close
   request still asks for the index dumps (s_dump_req), as every close request does *)
Theorem C13_inapplicable_request_changes_nothing :
  forall (K : N) (cfg : config) (s : storage) (o : op),
    s_open s = true -> inapplicable s o ->
    fst (step K cfg s o) = match o with OBgClose => request_dump s | _ => s end.
Proof. exact inapplicable_step. Qed.

(* within a session nothing starts a worker either; no history leads to an open storage with a dead one
   (C13_alive_after_every_history) *)
Theorem C13_dead_stays_dead :
  forall (K : N) (cfg : config) (s : storage) (o : op),
    s_open s = true -> s_alive s = false -> s_alive (fst (step_q K cfg s o)) = false.
Proof. exact dead_stays_dead. Qed.

(* after EVERY history, a storage that is open has a live worker: open starts it (do_open), only close and
   drop stop it (closed_state), and they end the session. No side condition. *)
Theorem C13_alive_after_every_history :
  forall (K : N) (cfg : config) (ops : list op),
    s_open (reach K cfg ops) = true -> s_alive (reach K cfg ops) = true.
Proof. exact alive_after_every_history. Qed.

(* rotation: with a live worker, a write that leaves the (aged) active blob full switches to a fresh blob *)
Theorem C13_rotation_happens :
  forall (K : N) (cfg : config) (s : storage) (k ts : N) (meta : option N) (msize dlen dseed : N) (b b' : blob),
    s_open s = true -> s_alive s = true -> s_aged s = true -> s_active s = Some b -> b_ondisk b = false ->
    c_dup cfg = true ->
    blob_append b (mk_rec k ts false meta msize dlen dseed) = (b', true) ->
    blob_full K cfg b' = true ->
    let s' := fst (step K cfg s (OWrite k ts meta msize dlen dseed)) in
    (exists nb, s_active s' = Some nb /\ b_id nb = s_next s /\ b_recs nb = []) /\
    In (Some b') (s_closed s') /\ s_next s' = s_next s + 1.
Proof. intros K cfg s k ts meta msize dlen dseed b b' Ho Ha Hg Hact _. apply rotation_happens; assumption. Qed.

Theorem C13_dumps_complete :
  forall (K : N) (s : storage),
    s_alive s = true -> s_dump_req s = true ->
    forall b, In (Some b) (s_closed (quiesce K s)) -> b_ondisk b = true \/ b_idx b = [].
Proof. exact dumps_complete. Qed.

Theorem C13_close_returns :
  forall (K : N) (cfg : config) (s : storage),
    s_open s = true -> snd (step_q K cfg s OClose) = RUnit /\ s_open (fst (step_q K cfg s OClose)) = false.
Proof. exact close_returns. Qed.

(* ---- structural facts re-extracted from the Rust source on every run (tools/extract_src.py, Generated/Facts.v):
   the orderings inside the code that the models used above assume. A change of the code that invalidates one turns
   the generated boolean into `false` and this file no longer compiles. ---- *)
(* Storage/Model.v worker: a failed request leaves the worker alive *)
Theorem C13_source_background_failures_logged : Pearl.Generated.Facts.BACKGROUND_FAILURES_ARE_LOGGED = true.
Proof. reflexivity. Qed.

Print Assumptions C13_worker_stays_alive.
Print Assumptions C13_inapplicable_request_is_harmless.
Print Assumptions C13_inapplicable_request_changes_nothing.
Print Assumptions C13_dead_stays_dead.
Print Assumptions C13_alive_after_every_history.
Print Assumptions C13_rotation_happens.
Print Assumptions C13_dumps_complete.
Print Assumptions C13_close_returns.
Print Assumptions C13_source_background_failures_logged.
