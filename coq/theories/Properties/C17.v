(* C17 On-disk format compatibility with the pinned release. Statements: each follows in a line from the layers below; computed examples are evaluated here. *)
Require Import Pearl.Base.Prelude Pearl.Base.LE Pearl.Generated.Consts Pearl.Format.Record Pearl.Format.RecordProofs
               Pearl.Blob.Scan Pearl.Blob.ScanBasics.
From Coq Require Import String.

(* The constants and field orders regenerated from the CURRENT source equal the pinned release's.
   A changed magic number, version, flag, hasher key rule, aHash constant or a reordered / retyped field
   of an on-disk struct breaks THIS proof (reflexivity fails). *)
Theorem C17_constants_pinned :
  BLOB_VERSION = 1 /\ BLOB_MAGIC_BYTE = 0xdeafabcd /\ HEADER_VERSION = 6 /\ INDEX_HEADER_MAGIC_BYTE = 0xacdcbcde /\
  RECORD_MAGIC_BYTE = 0xacdcbcde /\ DELETE_FLAG = 1 /\ HASH_LENGTH = 32 /\ BLOCK_SIZE = 4096 /\
  MAX_SINGLE_PASS_DATA_SIZE = 4096 /\
  AHASH_MULTIPLE = 6364136223846793005 /\ AHASH_ROT = 23 /\
  AHASH_PI = [0x243f6a8885a308d3; 0x13198a2e03707344; 0xa4093822299f31d0; 0x082efa98ec4e6c89] /\
  BLOOM_HASHER_KEY1_ADD = 1 /\ BLOOM_HASHER_KEY2_ADD = 2.
Proof. repeat split; reflexivity. Qed.

Theorem C17_field_order_pinned :
  FIELDS_RECORD_HEADER = ["magic_byte:u64"; "key:Vec<u8>"; "meta_size:u64"; "data_size:u64"; "flags:u8"; "blob_offset:u64";
                          "timestamp:u64"; "data_checksum:u32"; "header_checksum:u32"]%string /\
  FIELDS_BLOB_HEADER = ["magic_byte:u64"; "version:u32"; "flags:u64"]%string /\
  FIELDS_INDEX_HEADER = ["magic_byte:u64"; "records_count:usize"; "record_header_size:usize"; "meta_size:usize"; "hash:Vec<u8>";
                         "version:u8"; "key_size:u16"; "blob_size:u64"]%string /\
  FIELDS_TREE_META = ["leaves_offset:u64"; "tree_offset:u64"]%string /\
  FIELDS_BLOOM_SAVE = ["config:Config"; "buf:Vec<u64>"; "bits_count:usize"]%string /\
  FIELDS_BLOOM_CONFIG = ["elements:usize"; "hashers_count:usize"; "max_buf_bits_count:usize"; "buf_increase_step:usize";
                         "preferred_false_positive_rate:f64"]%string /\
  FIELDS_RANGE = ["min:K"; "max:K"; "initialized:bool"]%string.
Proof. repeat split; reflexivity. Qed.

(* decode . encode = id for the record header of every key length (no size bound) *)
Theorem C17_header_roundtrip : forall h : header, wf_header h -> decode_header (encode_header h) = Some h.
Proof. exact decode_encode_header. Qed.

(* a blob whose first record has another key length, or whose version differs, is REJECTED with a validation error
   (quarantine, resp. init failure) -- never parsed with the wrong layout *)
Theorem C17_version_mismatch_rejected :
  forall (b : bytes) (K : N) (v : bool),
    (20 <= List.length b)%nat -> u64_at b 0 = BLOB_MAGIC_BYTE -> u32_at b 8 <> BLOB_VERSION ->
    blob_open_scan b K v = RFail EBlobVersion.
Proof. exact version_mismatch_rejected. Qed.

Theorem C17_key_size_mismatch_rejected :
  forall (b : bytes) (K : N) (v : bool),
    (36 <= List.length b)%nat -> blob_header_check b = None -> u64_at b 20 = RECORD_MAGIC_BYTE -> u64_at b 28 <> K ->
    blob_open_scan b K v = RFail EKeySize.
Proof. exact key_size_mismatch_rejected. Qed.

Print Assumptions C17_constants_pinned.
Print Assumptions C17_field_order_pinned.
Print Assumptions C17_header_roundtrip.
Print Assumptions C17_version_mismatch_rejected.
Print Assumptions C17_key_size_mismatch_rejected.
