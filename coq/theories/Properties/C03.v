(* C03 Restart equivalence: index files are a disposable cache of the blobs. Statements: each follows in a line from the layers below; computed examples are evaluated here. *)
Require Import Pearl.Base.Prelude Pearl.Storage.Model Pearl.Storage.Spec Pearl.Storage.Inv Pearl.Storage.InvProofs
               Pearl.Storage.ReadProofs Pearl.Storage.ReadAllProofs Pearl.Storage.Theorems
               Pearl.Base.LE Pearl.Index.BPTree Pearl.Index.Bytes Pearl.Index.Open Pearl.Index.OpenProofs.

Require Pearl.Generated.Facts.
(* After EVERY history, closing the storage and opening it again (eager or lazy) on the same directory
   leaves the log -- the only thing every query is a function of (C01, C02) -- exactly as it was ...
   (`s_bad (reach K cfg ops) = []`: no blob file of the directory was made unreadable by a crash since the last start;
   this holds whenever the storage is open, C03_open_storage_has_no_unreadable_file. What a restart does to a file
   damaged by a crash is C06_cut_*.) *)
Theorem C03_restart_log_unchanged :
  forall (K : N) (cfg : config) (ops : list op) (lazy : bool),
    s_bad (reach K cfg ops) = [] ->
    abs (reach K cfg (ops ++ [OClose; OOpen lazy])) = abs (reach K cfg ops).
Proof. exact reach_restart_abs. Qed.

(* ... also when ANY subset of the index files is removed between the two sessions: the indexes are then
   regenerated by scanning the blobs, and the regenerated index is the index of the blob's records
   (invariant Inv.idx_ok, kept by every operation: C03_invariant) *)
Theorem C03_restart_with_removed_indexes :
  forall (K : N) (cfg : config) (ops : list op) (ids : list N) (lazy : bool),
    s_bad (reach K cfg ops) = [] ->
    abs (reach K cfg (ops ++ [OClose] ++ map ORmIndex ids ++ [OOpen lazy])) = abs (reach K cfg ops).
Proof. exact reach_restart_rmindex_abs. Qed.

(* a session that ends WITHOUT close (index files stale or missing for blobs changed since their dump:
   the recorded blob size differs, so they are regenerated) *)
Theorem C03_drop_and_reopen :
  forall (K : N) (cfg : config) (ops : list op) (lazy : bool),
    s_bad (reach K cfg ops) = [] ->
    abs (reach K cfg ((ops ++ [ODrop]) ++ [OOpen lazy])) = abs (reach K cfg ops).
Proof. intros K cfg ops lazy HB. rewrite <- app_assoc. apply reach_nondata_list; [repeat constructor|exact HB]. Qed.

Theorem C03_invariant :
  forall (K : N) (cfg : config) (ops : list op), Inv K (reach K cfg ops).
Proof. exact reach_Inv. Qed.

Theorem C03_reads_after_restart :
  forall (K : N) (cfg : config) (ops : list op) (lazy : bool) (k : N),
    s_bad (reach K cfg ops) = [] ->
    get_latest_entry (reach K cfg (ops ++ [OClose; OOpen lazy])) k None = get_latest_entry (reach K cfg ops) k None.
Proof. exact reach_restart_read. Qed.

(* the same without proviso, for EVERY history (crash damage included): a RUNNING storage can be closed, or dropped,
   and started again without any change of the log ... *)
Theorem C03_restart_of_a_running_storage :
  forall (K : N) (cfg : config) (ops : list op) (lazy : bool),
    s_open (reach K cfg ops) = true ->
    abs (reach K cfg (ops ++ [OClose; OOpen lazy])) = abs (reach K cfg ops).
Proof. exact reach_restart_open_abs. Qed.
Theorem C03_drop_and_reopen_of_a_running_storage :
  forall (K : N) (cfg : config) (ops : list op) (lazy : bool),
    s_open (reach K cfg ops) = true ->
    abs (reach K cfg ((ops ++ [ODrop]) ++ [OOpen lazy])) = abs (reach K cfg ops).
Proof. intros K cfg ops lazy Ho. apply C03_drop_and_reopen, reach_open_no_bad, Ho. Qed.
(* ... and whatever a crash did to the files in between, `open` makes the log the records of the blob files that can
   be read back (the others are moved to the corrupted directory: C06_cut_inside_quarantines) *)
Theorem C03_open_serves_the_readable_files :
  forall (K : N) (cfg : config) (ops : list op) (lazy : bool),
    abs (reach K cfg (ops ++ [OOpen lazy])) = readable_log (reach K cfg ops).
Proof. exact reach_open_abs. Qed.

Theorem C03_open_storage_has_no_unreadable_file :
  forall (K : N) (cfg : config) (ops : list op), s_open (reach K cfg ops) = true -> s_bad (reach K cfg ops) = [].
Proof. exact reach_open_no_bad. Qed.

(* ids: strictly increasing, and on a running storage the next id above all, after every history (restarts included) *)
Theorem C03_ids_after_restart :
  forall (K : N) (cfg : config) (ops : list op), IdsOk (reach K cfg ops).
Proof. exact reach_IdsOk. Qed.

(* Byte level, when an index FILE is trusted on open (Index::from_file + validate): the index file the serializer
   writes (written flag set, recorded blob size = actual size) is trusted *)
Theorem C03_index_accepted_when_it_belongs_to_the_blob :
  forall K hash meta m bsize, idx_ok K hash meta m bsize ->
  index_open (index_file_bytes K hash true meta m bsize) K bsize
  = inl (leaves_offset (idx_file K meta m), tree_offset (idx_file K meta m)).
Proof. exact index_open_accepts. Qed.

(* half-written: the written flag is still clear => rejected (regenerated) *)
Theorem C03_unwritten_index_rejected :
  forall K hash meta m bsize K0 bs, idx_ok K hash meta m bsize ->
  index_open (index_file_bytes K hash false meta m bsize) K0 bs = inr INotWritten.
Proof. exact index_open_rejects_unwritten. Qed.

(* stale: describes a blob of another size => rejected *)
Theorem C03_stale_index_rejected :
  forall K hash meta m bsize bsize', idx_ok K hash meta m bsize ->
  bsize' <> bsize -> index_open (index_file_bytes K hash true meta m bsize) K bsize' = inr IBlobSize.
Proof. exact index_open_rejects_stale. Qed.

(* truncated inside header, filter section or tree meta (every such length) => rejected *)
Theorem C03_short_index_rejected :
  forall K hash written meta m bsize K0 bs n, idx_ok K hash meta m bsize ->
  (n < 83 + length meta + 16)%nat ->
  index_open (firstn n (index_file_bytes K hash written meta m bsize)) K0 bs = inr IEof.
Proof. exact index_open_rejects_short. Qed.

(* truncated ANYWHERE: every proper prefix of the file the serializer writes is rejected (below the end of the
   tree meta with IEof, from there on by the length check leaves_offset + records_count * record_header_size,
   which commit cb0b7cf of the code added: finding F5) *)
Theorem C03_truncated_index_rejected :
  forall K hash written meta m bsize K0 bs n, idx_ok K hash meta m bsize ->
  (n < length (index_file_bytes K hash written meta m bsize))%nat ->
  exists e, index_open (firstn n (index_file_bytes K hash written meta m bsize)) K0 bs = inr e.
Proof. exact index_open_rejects_truncated. Qed.

(* from the end of the tree meta on, the error is that of the length check *)
Theorem C03_cut_index_rejected :
  forall K hash written meta m bsize K0 bs n, idx_ok K hash meta m bsize ->
  (83 + length meta + 16 <= n)%nat -> (n < length (index_file_bytes K hash written meta m bsize))%nat ->
  index_open (firstn n (index_file_bytes K hash written meta m bsize)) K0 bs = inr ICut.
Proof. exact index_open_rejects_cut. Qed.

(* the length check is exact: a complete file has leaves_offset + records_count * record_header_size bytes *)
Theorem C03_index_file_length :
  forall K hash written meta m bsize, length hash = 32%nat ->
  N.of_nat (length (index_file_bytes K hash written meta m bsize))
  = leaves_offset (idx_file K meta m) + count ih m * (57 + K).
Proof. exact index_file_length. Qed.

(* computed: three records under two 4-byte keys, 3 bytes of filter section: 285 = 102 + 3 * 61 bytes, accepted
   in full, rejected when one byte is missing *)
Example C03_index3_cut_by_one_byte :
  length ex_index3 = 285%nat /\
  index_open ex_index3 4 1000 = inl (102, 102) /\
  index_open (firstn 284 ex_index3) 4 1000 = inr ICut /\
  index_open (firstn 102 ex_index3) 4 1000 = inr ICut /\
  index_open (firstn 101 ex_index3) 4 1000 = inr IEof.
Proof. vm_compute. repeat split. Qed.

(* computed: 200 keys, one tree node of 40 bytes in front of the leaves: 12342 = 142 + 200 * 61 bytes *)
Example C03_index200_cut_by_one_byte :
  N.of_nat (length ex_index200) = 12342 /\
  index_open ex_index200 4 1000 = inl (142, 102) /\
  index_open (firstn (length ex_index200 - 1) ex_index200) 4 1000 = inr ICut /\
  index_open (firstn 142 ex_index200) 4 1000 = inr ICut.
Proof. vm_compute. repeat split. Qed.

(* Structural facts re-extracted from the Rust source on every run (tools/extract_src.py, Generated/Facts.v):
   the orderings inside the code that the models used above assume. A change of the code that invalidates one turns
   the generated boolean into `false` and this file no longer compiles. *)
(* Index/Open.v rejects an index whose recorded blob size differs from the blob size IN EITHER DIRECTION *)
Theorem C03_source_index_size_must_be_equal : Pearl.Generated.Facts.INDEX_BLOB_SIZE_MUST_BE_EQUAL = true.
Proof. reflexivity. Qed.
(* Index/Open.v has the ICut check right after the tree meta is read *)
Theorem C03_source_index_length_is_checked : Pearl.Generated.Facts.INDEX_LENGTH_IS_CHECKED = true.
Proof. reflexivity. Qed.
(* new blobs get ids above every id ever present in the directory, quarantined ones included *)
Theorem C03_source_quarantined_ids_count : Pearl.Generated.Facts.QUARANTINED_IDS_COUNT_FOR_NEXT_ID = true.
Proof. reflexivity. Qed.
(* the index rebuilt from a blob ranks equal timestamps of a key by their order in the blob, as the live index did *)
Theorem C03_source_regeneration_keeps_scan_order : Pearl.Generated.Facts.REGENERATION_KEEPS_SCAN_ORDER = true.
Proof. reflexivity. Qed.

Print Assumptions C03_restart_log_unchanged.
Print Assumptions C03_restart_with_removed_indexes.
Print Assumptions C03_drop_and_reopen.
Print Assumptions C03_invariant.
Print Assumptions C03_reads_after_restart.
Print Assumptions C03_open_storage_has_no_unreadable_file.
Print Assumptions C03_restart_of_a_running_storage.
Print Assumptions C03_drop_and_reopen_of_a_running_storage.
Print Assumptions C03_open_serves_the_readable_files.
Print Assumptions C03_ids_after_restart.
Print Assumptions C03_index_accepted_when_it_belongs_to_the_blob.
Print Assumptions C03_unwritten_index_rejected.
Print Assumptions C03_stale_index_rejected.
Print Assumptions C03_short_index_rejected.
Print Assumptions C03_truncated_index_rejected.
Print Assumptions C03_cut_index_rejected.
Print Assumptions C03_index_file_length.
Print Assumptions C03_index3_cut_by_one_byte.
Print Assumptions C03_index200_cut_by_one_byte.
Print Assumptions C03_source_index_size_must_be_equal.
Print Assumptions C03_source_index_length_is_checked.
Print Assumptions C03_source_quarantined_ids_count.
Print Assumptions C03_source_regeneration_keeps_scan_order.
