(* C16 Offline tools validate exactly well-formed files and recover without loss. Statements, and the evaluations
   that their computed examples share. *)
Require Import Pearl.Base.Prelude Pearl.Base.LE Pearl.Generated.Consts Pearl.Format.Record Pearl.Storage.Model
               Pearl.Blob.Bytes Pearl.Blob.Scan Pearl.Blob.ScanProofs Pearl.Blob.ToolsProofs.

Definition c16_meta_ok (m : bytes) : bool := forallb (fun x => x =? 0) m.
Definition c16_recs : list Pearl.Storage.Model.rec :=
  [mk_rec 16 7 false None 8 5 1; mk_rec 17 7 false None 8 40 2; mk_rec 18 7 false None 8 5 3].
Definition c16_blob : bytes := blob_file_bytes 4 c16_recs.
Definition flip_at (b : bytes) (pos : nat) : bytes := firstn pos b ++ [N.lxor (nth pos b 0) 1] ++ skipn (S pos) b.

(* the bytes of c16_blob, evaluated once *)
Definition c16_bytes : bytes := Eval vm_compute in c16_blob.
Lemma c16_blob_bytes : c16_blob = c16_bytes.
Proof. vm_compute. reflexivity. Qed.

(* the tools model accepts a blob the storage model produces and rejects it once a data byte is flipped or
   it is cut inside a record (conformance examples; the general statements are in Blob/ToolsProofs.v) *)
Theorem C16_accepts_produced_blob : tool_validate_blob c16_meta_ok c16_blob = true.
Proof. rewrite c16_blob_bytes. vm_compute. reflexivity. Qed.
Theorem C16_rejects_flipped_data : tool_validate_blob c16_meta_ok (flip_at c16_blob 170) = false.
Proof. rewrite c16_blob_bytes. vm_compute. reflexivity. Qed.
Theorem C16_rejects_cut_record : tool_validate_blob c16_meta_ok (firstn 150 c16_blob) = false.
Proof. rewrite c16_blob_bytes. vm_compute. reflexivity. Qed.

(* recovery of the flipped blob with skipping keeps records 1 and 3: the recovered file is byte for byte the blob the
   storage writes for records 1 and 3 alone ... *)
Definition c16_kept : list Pearl.Storage.Model.rec := [mk_rec 16 7 false None 8 5 1; mk_rec 18 7 false None 8 5 3].
Lemma c16_recovered : tool_recover c16_meta_ok (flip_at c16_blob 170) true = Some (blob_file_bytes 4 c16_kept).
Proof. rewrite c16_blob_bytes. vm_compute. reflexivity. Qed.

(* ... the result validates ... *)
Lemma c16_kept_validates :
  tool_validate_blob c16_meta_ok (blob_file_bytes 4 c16_kept) = true /\ length (blob_file_bytes 4 c16_kept) = 168%nat.
Proof. vm_compute. split; reflexivity. Qed.

Theorem C16_recovery_validates :
  match tool_recover c16_meta_ok (flip_at c16_blob 170) true with
  | Some out => tool_validate_blob c16_meta_ok out = true /\ length out = 168%nat
  | None => False
  end.
Proof. rewrite c16_recovered. exact c16_kept_validates. Qed.

(* ... and the storage reads records 1 and 3 from it with their original bytes: the scan that regenerates the index
   returns two headers, record 3's header carries its NEW blob_offset 94 (in the input it was at 203, behind the
   damaged record), Entry::load succeeds through both, and the recovered file is byte for byte the blob the storage
   writes for records 1 and 3 alone (finding F7: see the head of Blob/ToolsProofs.v) *)
Lemma c16_kept_served :
  let out := blob_file_bytes 4 c16_kept in
  match blob_open_scan out 4 false with
  | ROk [h1; h3] => entry_load out h1 = ROk (meta_bytes 0, gen_data 1 5) /\
                    entry_load out h3 = ROk (meta_bytes 0, gen_data 3 5) /\
                    h_off h1 = 20 /\ h_off h3 = 94 /\
                    [h1; h3] = blob_headers 4 c16_kept /\ out = blob_file_bytes 4 c16_kept
  | _ => False
  end.
Proof. vm_compute. repeat split; reflexivity. Qed.

Theorem C16_recovered_records_readable :
  match tool_recover c16_meta_ok (flip_at c16_blob 170) true with
  | Some out =>
    match blob_open_scan out 4 false with
    | ROk [h1; h3] => entry_load out h1 = ROk (meta_bytes 0, gen_data 1 5) /\
                      entry_load out h3 = ROk (meta_bytes 0, gen_data 3 5) /\
                      h_off h1 = 20 /\ h_off h3 = 94 /\
                      [h1; h3] = blob_headers 4 c16_kept /\ out = blob_file_bytes 4 c16_kept
    | _ => False
    end
  | None => False
  end.
Proof. rewrite c16_recovered. exact c16_kept_served. Qed.

(* a record whose METADATA does not decode (here: the middle record carries the map {"v": "1"}, which c16_meta_ok
   rejects) is stepped over like a record with a wrong data checksum: without skipping only record 1 survives,
   with skipping records 1 and 3 do, and the storage reads both from the recovered file *)
Definition c16m_recs : list Pearl.Storage.Model.rec :=
  [mk_rec 16 7 false None 8 5 1; mk_rec 17 7 false (Some 1) 8 40 2; mk_rec 18 7 false None 8 5 3].
Definition c16m_blob : bytes := blob_file_bytes 4 c16m_recs.
Example C16_recovery_skips_undecodable_meta :
  map (fun r => c16_meta_ok (meta_bytes (r_meta r))) c16m_recs = [true; false; true] /\
  tool_validate_blob c16_meta_ok c16m_blob = false /\
  tool_recover c16_meta_ok c16m_blob false = Some (blob_file_bytes 4 [mk_rec 16 7 false None 8 5 1]) /\
  match tool_recover c16_meta_ok c16m_blob true with
  | Some out =>
    tool_validate_blob c16_meta_ok out = true /\ length out = 168%nat /\
    match blob_open_scan out 4 false with
    | ROk [h1; h3] => entry_load out h1 = ROk (meta_bytes 0, gen_data 1 5) /\
                      entry_load out h3 = ROk (meta_bytes 0, gen_data 3 5) /\
                      h_off h1 = 20 /\ h_off h3 = 94 /\
                      [h1; h3] = blob_headers 4 c16_kept /\ out = blob_file_bytes 4 c16_kept
    | _ => False
    end
  | None => False
  end.
Proof.
  assert (E : tool_recover c16_meta_ok c16m_blob true = Some (blob_file_bytes 4 c16_kept)) by (vm_compute; reflexivity).
  rewrite E. split; [|split; [|split]].
  - vm_compute. reflexivity.
  - vm_compute. reflexivity.
  - vm_compute. reflexivity.
  - exact (conj (proj1 c16_kept_validates) (conj (proj2 c16_kept_validates) c16_kept_served)).
Qed.

(* the writer's stamp (Blob/Scan.v `stamp`) *)
Theorem C16_stamp_off : forall h o, h_off (stamp h o) = o.
Proof. exact stamp_off. Qed.
Theorem C16_stamp_crc : forall h o, h_hcrc h = header_crc h -> h_hcrc (stamp h o) = header_crc (stamp h o).
Proof. exact stamp_crc. Qed.
Theorem C16_stamp_same : forall h o, h_off h = o -> stamp h o = h.
Proof. exact stamp_same. Qed.
Theorem C16_stamp_other_fields : forall h o,
  h_magic (stamp h o) = h_magic h /\ h_key (stamp h o) = h_key h /\ h_msize (stamp h o) = h_msize h /\
  h_dsize (stamp h o) = h_dsize h /\ h_flags (stamp h o) = h_flags h /\ h_ts (stamp h o) = h_ts h /\
  h_dcrc (stamp h o) = h_dcrc h.
Proof. exact stamp_other_fields. Qed.
Theorem C16_stamp_valid : forall h o, validate_header h = None -> validate_header (stamp h o) = None.
Proof. exact stamp_valid. Qed.

Print Assumptions C16_accepts_produced_blob.
Print Assumptions C16_rejects_flipped_data.
Print Assumptions C16_rejects_cut_record.
Print Assumptions C16_recovery_validates.
Print Assumptions C16_recovered_records_readable.
Print Assumptions C16_recovery_skips_undecodable_meta.
Print Assumptions C16_stamp_off.
Print Assumptions C16_stamp_crc.
Print Assumptions C16_stamp_same.
Print Assumptions C16_stamp_other_fields.
Print Assumptions C16_stamp_valid.

(* Every well-formed blob (`rec` of Blob/ScanProofs.v is (key, ts, meta, data)). `meta_ok` is the acceptance test
   the tools' reader applies to the metadata of a record: any boolean function here; the driver passes `meta_ok` of
   Format/Meta.v (decodes as a bincode map, nothing left over, keys distinct). *)
Section General.
Variable meta_ok : bytes -> bool.
(* validate_blob accepts a byte-prefix of a blob EXACTLY when the cut is at a record boundary: every produced blob is
   accepted, every truncation elsewhere is rejected *)
Theorem C16_validate_accepts_exactly_record_boundaries :
  forall K rs n, wf_recs K rs -> metas_ok meta_ok rs -> (n <= length (blob_bytes rs))%nat ->
  (tool_validate_blob meta_ok (firstn n (blob_bytes rs)) = true
   <-> exists j, (j <= length rs)%nat /\ n = boundary rs j).
Proof. exact (tool_validate_prefix meta_ok). Qed.

Theorem C16_validate_accepts_produced :
  forall K rs, wf_recs K rs -> metas_ok meta_ok rs ->
  tool_validate_blob meta_ok (blob_bytes rs) = true.
Proof. exact (tool_validate_complete meta_ok). Qed.

(* recovery of a blob cut at any length >= 20 returns exactly the blob of the records that lie completely inside the cut
   (with or without skipping), itself the file of a list of records *)
Theorem C16_recovery_keeps_exactly_the_complete_records :
  forall K rs n skip, wf_recs K rs -> metas_ok meta_ok rs ->
  (20 <= n)%nat -> (n <= length (blob_bytes rs))%nat ->
  let j := ncomplete 20 rs n in
  tool_recover meta_ok (firstn n (blob_bytes rs)) skip = Some (blob_bytes (firstn j rs)) /\
  (j <= length rs)%nat /\ (boundary rs j <= n)%nat /\ ((j < length rs)%nat -> (n < boundary rs (S j))%nat).
Proof. exact (tool_recover_prefix meta_ok). Qed.

End General.
Print Assumptions C16_validate_accepts_exactly_record_boundaries.
Print Assumptions C16_validate_accepts_produced.
Print Assumptions C16_recovery_keeps_exactly_the_complete_records.

(* Recovery of ANY input file, damaged or not, with or without skipping (Blob/ToolsProofs.v; an `item` is (header as
   read, meta, data); `out_of items out` writes the items behind `out`, each through the stamping writer;
   `out_hdrs 20 items` are the stamped headers). *)
Section Recovered.
Variable meta_ok : bytes -> bool.
(* every record the tool appends was read successfully from the input, starts at the length of the output so far,
   carries that position and a right checksum in its header, and Entry::load through that header returns the
   metadata and data that were read *)
Theorem C16_recovered_record_carries_its_position :
  forall fuel b skip pos out,
  exists items, tool_recover_loop meta_ok fuel b skip pos out = out_of items out /\
    Forall (was_read meta_ok b) items /\
    forall its1 h m d its2, items = its1 ++ (h, m, d) :: its2 ->
      let o1 := out_of its1 out in
      let h' := stamp h (N.of_nat (length o1)) in
      (exists suf, out_of items out = o1 ++ encode_header h' ++ m ++ d ++ suf) /\
      h_off h' = N.of_nat (length o1) /\ validate_header h' = None /\
      entry_load (out_of items out) h' = ROk (m, d).
Proof. exact (tool_recover_loop_offsets meta_ok). Qed.

(* the storage opens the recovered file (scan with or without data validation), gets one header per written record,
   and reads every one of them back *)
Theorem C16_recovered_blob_is_served :
  forall K b skip out v,
  wf_bytes b -> blob_header_check b = None ->
  (forall pos h m d p', tool_read meta_ok b pos = inl (h, m, d, p') -> N.of_nat (length (h_key h)) = K) ->
  tool_recover meta_ok b skip = Some out -> N.of_nat (length out) < 2^64 ->
  exists items,
    Forall (was_read meta_ok b) items /\ out = out_of items (firstn 20 b) /\
    blob_open_scan out K v = ROk (out_hdrs 20 items) /\
    Forall2 (fun it h' => entry_load out h' = ROk (snd (fst it), snd it)) items (out_hdrs 20 items).
Proof. exact (tool_recover_served meta_ok). Qed.
End Recovered.
Print Assumptions C16_recovered_record_carries_its_position.
Print Assumptions C16_recovered_blob_is_served.

(* The metadata map (Format/Meta.v: the bincode image of HashMap<String, Vec<u8>>; its `meta_ok` is what the driver
   passes for the `meta_ok` parameter of the theorems above). *)
Require Pearl.Format.Meta Pearl.Format.MetaProofs.
Module M := Pearl.Format.Meta.
Module MP := Pearl.Format.MetaProofs.
(* every metadata map the storage can write (String keys, distinct) is accepted: the hypothesis `metas_ok` of the
   theorems above holds for every blob the storage produces *)
Theorem C16_tools_accept_every_written_metadata : forall es : list (bytes * bytes),
  N.of_nat (length es) < 2 ^ 64 ->
  Forall (fun e => N.of_nat (length (fst e)) < 2 ^ 64 /\ N.of_nat (length (snd e)) < 2 ^ 64) es ->
  Forall (fun e => M.is_utf8 (fst e) = true) es ->
  M.keys_distinct (map fst es) = true -> M.meta_ok (M.encode_meta es) = true.
Proof. exact MP.meta_ok_encode. Qed.
(* a map that decodes with bytes left over (a damaged length prefix) is rejected by the tools (commit 186ae23 of the
   code); bincode alone ignores them, and recovery that goes by bincode alone writes the shorter map under the
   meta_size of the longer one: finding F27 *)
Theorem C16_metadata_with_trailing_bytes_rejected : forall (es : list (bytes * bytes)) (x : N) (rest : bytes),
  N.of_nat (length es) < 2 ^ 64 ->
  Forall (fun e => N.of_nat (length (fst e)) < 2 ^ 64 /\ N.of_nat (length (snd e)) < 2 ^ 64) es ->
  Forall (fun e => M.is_utf8 (fst e) = true) es ->
  M.meta_ok (M.encode_meta es ++ x :: rest) = false /\ M.meta_decodes (M.encode_meta es ++ x :: rest) = true.
Proof. intros es x rest H1 H2 H3. split; [apply MP.meta_ok_no_trailing | apply MP.meta_decodes_ignores_trailing]; assumption. Qed.
(* REFUTED clause (finding F26, known): "corrupted files are rejected" fails for the metadata, which no checksum covers:
   two images of the same length that differ in one byte are both accepted *)
Theorem C16_metadata_content_flip_undetected_refuted :
  let m1' := updN MP.m1 25 (fun x : N => N.lxor x 64) in
  m1' <> MP.m1 /\ length m1' = length MP.m1 /\ M.meta_ok MP.m1 = true /\ M.meta_ok m1' = true.
Proof. pose proof MP.content_flip_is_accepted as H. cbv zeta in H |- *. destruct H as (_ & Hne & Hl & Hok & _).
       split; [exact Hne | split; [exact Hl | split; [exact (proj1 MP.m1_ok) | exact Hok]]]. Qed.
Print Assumptions C16_tools_accept_every_written_metadata.
Print Assumptions C16_metadata_with_trailing_bytes_rejected.
Print Assumptions C16_metadata_content_flip_undetected_refuted.

(* REFUTED clauses recorded as known findings (the model mirrors the code, so the witnesses are computed in it and
   replayed on the crate by regress/C16/f31_*.txt and f32_*.txt):
   F31 -- the version field of the blob header is covered by no checksum and the tools accept every version: the blob with
   its version byte flipped (1 -> 0) passes validate_blob, recovery copies the header, and the storage refuses the result;
   F32 -- recovery with skipping steps over a damaged record by that record's own sizes: one flipped bit in the data-size
   field of record 2 and the intact record 3 is not in the output (only record 1 is). *)
Theorem C16_blob_header_version_flip_undetected_refuted :
  flip_at c16_blob 8 <> c16_blob /\
  tool_validate_blob c16_meta_ok (flip_at c16_blob 8) = true /\
  match tool_recover c16_meta_ok (flip_at c16_blob 8) true with
  | Some out => dispose (blob_open_scan out 4 false) = DInitFails
  | None => False
  end.
Proof. rewrite c16_blob_bytes. vm_compute. split; [discriminate | split; reflexivity]. Qed.
Theorem C16_size_field_flip_ends_skipping_recovery_refuted :
  tool_validate_blob c16_meta_ok (flip_at c16_blob 122) = false /\
  tool_recover c16_meta_ok (flip_at c16_blob 122) true = Some (blob_file_bytes 4 [mk_rec 16 7 false None 8 5 1]) /\
  tool_recover c16_meta_ok (flip_at c16_blob 170) true = Some (blob_file_bytes 4 c16_kept).
Proof.
  split; [|split].
  - rewrite c16_blob_bytes. vm_compute. reflexivity.
  - rewrite c16_blob_bytes. vm_compute. reflexivity.
  - exact c16_recovered.
Qed.
Print Assumptions C16_blob_header_version_flip_undetected_refuted.
Print Assumptions C16_size_field_flip_ends_skipping_recovery_refuted.
