(* C05 Byte integrity: values round-trip exactly; altered bytes are never served. Statements: each follows in a line from the layers below; computed examples are evaluated here. *)
Require Import Pearl.Base.Prelude Pearl.Base.LE Pearl.Base.Crc Pearl.Base.CrcProofs
               Pearl.Generated.Consts Pearl.Format.Record Pearl.Format.RecordProofs.

(* what Blob::write appends is header ++ meta ++ data with offset and header checksum patched in,
   for every data length: the 4096-byte single-pass threshold (regenerated constant
   MAX_SINGLE_PASS_DATA_SIZE) only decides whether one or two buffers are handed to pwrite *)
Theorem C05_write_record_bytes :
  forall (h : header) (meta data : bytes) (off : N),
    let h' := with_hcrc (with_off h off) (header_crc (with_off h off)) in
    write_record h meta data off = (encode_header h' ++ meta ++ data, h').
Proof. exact write_record_bytes. Qed.

(* a stored record is read back byte for byte (Entry::load), wherever it sits in the blob, for every
   key, timestamp, metadata and data of every length *)
Theorem C05_entry_load_roundtrip :
  forall (prefix suffix key : bytes) (ts : N) (meta data : bytes),
    let '(b, h') := write_record (new_header key ts meta data) meta data (N.of_nat (length prefix)) in
    entry_load (prefix ++ b ++ suffix) h' = ROk (meta, data).
Proof. exact entry_load_roundtrip. Qed.

Theorem C05_decode_encode_header :
  forall h : header, wf_header h -> decode_header (encode_header h) = Some h.
Proof. exact decode_encode_header. Qed.

(* CRC-32C detects every error pattern confined to a window of at most 32 bits, for every data
   length and every position of the window: d is the data as a bit string, e = 0^i b 0^j the pattern *)
Theorem C05_crc_detects_burst :
  forall (d : list bool) (i j : nat) (b : list bool),
    length d = (i + length b + j)%nat -> (length b <= 32)%nat -> existsb (fun x => x) b = true ->
    crc (xorl d (repeat false i ++ b ++ repeat false j)) <> crc d.
Proof. exact crc_detects_burst. Qed.

Theorem C05_crc32c_detects_burst32 :
  forall (d d' : bytes) (i j : nat) (b : list bool),
    bits_of d' = xorl (bits_of d) (repeat false i ++ b ++ repeat false j) ->
    length (bits_of d) = (i + length b + j)%nat -> (length b <= 32)%nat -> existsb (fun x => x) b = true ->
    crc32c d' <> crc32c d.
Proof. exact crc32c_detects_burst32. Qed.

Theorem C05_crc32c_detects_4_bytes :
  forall p w w' s : bytes,
    wf_bytes w -> wf_bytes w' -> length w = length w' -> (length w <= 4)%nat -> w <> w' ->
    crc32c (p ++ w ++ s) <> crc32c (p ++ w' ++ s).
Proof. exact crc32c_detects_4_bytes. Qed.

(* data bytes whose checksum differs from the recorded one are never returned by a read *)
Theorem C05_altered_data_not_served :
  forall (prefix suffix : bytes) (h' : header) (meta data data' : bytes),
    length data' = length data -> crc32c data' <> crc32c data ->
    h_dcrc h' = crc32c data -> h_msize h' = N.of_nat (length meta) -> h_dsize h' = N.of_nat (length data) ->
    h_off h' = N.of_nat (length prefix) ->
    forall r, entry_load (prefix ++ encode_header h' ++ meta ++ data' ++ suffix) h' = r -> exists e, r = RFail e.
Proof. exact altered_data_not_served. Qed.

(* the byte-wise function the model runs is the bit-serial CRC the burst theorem is about *)
Theorem C05_crc32c_is_bit_serial : forall bs : bytes, crc32c bs = crc (bits_of bs).
Proof. exact crc32c_bits. Qed.

(* conformance: the standard check value of CRC-32C *)
Example C05_check_value : crc32c [49;50;51;52;53;54;55;56;57] = 0xE3069283.
Proof. vm_compute. reflexivity. Qed.

Print Assumptions C05_write_record_bytes.
Print Assumptions C05_entry_load_roundtrip.
Print Assumptions C05_decode_encode_header.
Print Assumptions C05_crc_detects_burst.
Print Assumptions C05_crc32c_detects_burst32.
Print Assumptions C05_crc32c_detects_4_bytes.
Print Assumptions C05_altered_data_not_served.
Print Assumptions C05_crc32c_is_bit_serial.
