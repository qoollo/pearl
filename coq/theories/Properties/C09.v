(* C09 On-disk B+tree index = in-memory index. The theorems are proved in Index/BPTreeProofs.v and
   Index/TieProofs.v; what is proved here is that the sweep at the end follows from them. *)
Require Import Pearl.Base.Prelude Pearl.Generated.Consts Pearl.Generated.Pure Pearl.Index.BPTree
               Pearl.Index.BPTreeProofs Pearl.Index.TieProofs.

(* Unbounded: for EVERY in-memory index m (any number of keys, any number of versions per key in any order -- no
   assumption on the order inside a vector --, runs longer than a block, runs ending at block boundaries, any
   tree height) over keys of every length up to 1000 (the proof does not use the lower bound 1), the index file
   built from it (structured level: nodes at their byte offsets, leaves packed by remaining block space) answers
   latest-version and all-versions lookups for EVERY key -- present or absent, below, between, above -- exactly
   like the in-memory index, reports the same count and loads back into the same index.
   Block size is the regenerated constant BLOCK_SIZE; record size is 57 + key length. *)
Theorem C09_equiv :
  forall (H : Type) (hkey : H -> N) (ksz hdr_end : N) (m : inmem H),
    1 <= ksz -> ksz <= 1000 -> wf H hkey m ->
    let f := serialize H BLOCK_SIZE ksz (ksz + 57) hdr_end m in
    (forall k, get_latest_file H hkey BLOCK_SIZE ksz (ksz + 57) f k = get_latest_mem H m k) /\
    (forall k, get_all_file H hkey BLOCK_SIZE ksz (ksz + 57) f k = get_all_mem H m k) /\
    f_count f = count H m /\
    load_file H hkey f = m.
Proof. intros H hkey ksz hdr_end m _. apply serialize_equiv_pearl. Qed.

(* general parameters: any block size / key size / record size with one record per block and two children per node
   (the proof does not use m <> []) *)
Theorem C09_equiv_general :
  forall (H : Type) (hkey : H -> N) (B ksz rhs hdr_end : N) (m : inmem H),
    wf H hkey m -> m <> [] -> 0 < rhs -> rhs <= B -> ksz + 24 <= B ->
    let f := serialize H B ksz rhs hdr_end m in
    (forall k, get_latest_file H hkey B ksz rhs f k = get_latest_mem H m k) /\
    (forall k, get_all_file H hkey B ksz rhs f k = get_all_mem H m k) /\
    f_count f = count H m /\ load_file H hkey f = m.
Proof. intros H hkey B ksz rhs hdr_end m Hw _. apply serialize_equiv. exact Hw. Qed.

(* ties to the Rust source (functions regenerated by the translator on every run): the fan-out and the
   node size the model uses are the ones the serializer computes *)
Theorem C09_fanout_is_the_codes :
  forall ksz : N, ksz < 2^32 -> max_nonleaf_node_capacity ksz = max_amount BLOCK_SIZE ksz.
Proof. exact max_amount_tie. Qed.
Theorem C09_node_size_is_the_codes :
  forall ksz nk : N, ksz < 2^32 -> nk < 2^16 -> serialized_size_with_keys ksz nk = node_size ksz nk.
Proof. exact node_size_tie. Qed.


(* Non-vacuity: the hypotheses of the theorems above are met by the concrete indexes `mk n vers`, at block size
   64, key size 2, record size 10 (fan-out 5, 6 records per leaf -- the same code paths as 4096/K/57+K, deep
   trees with few records) and three version distributions (1 version; 1-5 versions; runs of 23 = 3.6 blocks).
   `agree` compares by boolean equalities the latest / all-versions lookups of every present key and of absent
   keys below, between and above, the load and the count of the file with those of the in-memory index. *)
Definition H := (N * N)%type.
Definition hk (h : H) := fst h.
Definition mk (nkeys : nat) (vers : nat -> nat) : inmem H :=
  map (fun i => (N.of_nat (2 * i + 2), map (fun j => (N.of_nat (2 * i + 2), N.of_nat j)) (seq 0 (vers i)))) (seq 0 nkeys).
Definition heqb (a b : H) := (fst a =? fst b) && (snd a =? snd b).
Definition oeqb {A} (e : A -> A -> bool) (a b : option A) :=
  match a, b with Some x, Some y => e x y | None, None => true | _, _ => false end.
Fixpoint leqb {A} (e : A -> A -> bool) (a b : list A) :=
  match a, b with [], [] => true | x :: a', y :: b' => e x y && leqb e a' b' | _, _ => false end.
Definition agree (B ksz rhs : N) (m : inmem H) : bool :=
  let f := serialize H B ksz rhs 100 m in
  forallb (fun k => oeqb heqb (get_latest_file H hk B ksz rhs f k) (get_latest_mem H m k)
                    && oeqb (leqb heqb) (get_all_file H hk B ksz rhs f k) (get_all_mem H m k))
          (map N.of_nat (seq 0 (2 * length m + 4)))
  && leqb (fun a b => (fst a =? fst b) && leqb heqb (snd a) (snd b)) (load_file H hk f) m
  && (f_count f =? count H m).
Definition vers1 (i : nat) := 1%nat.
Definition vers2 (i : nat) := (1 + Nat.modulo (i * 7) 5)%nat.
Definition vers3 (i : nat) := if Nat.eqb (Nat.modulo i 9) 4 then 23%nat else (1 + Nat.modulo i 3)%nat.

(* The boolean equalities are reflexive, so `agree` holds of every well-formed index by serialize_equiv, and
   `mk n vers` is well formed as soon as every key has a version: C09_bounded_sweep holds of every n, its bound
   120 is not used. *)
Lemma heqb_refl a : heqb a a = true.
Proof. unfold heqb. rewrite !N.eqb_refl. reflexivity. Qed.

Lemma leqb_refl {A} (e : A -> A -> bool) : (forall x, e x x = true) -> forall l, leqb e l l = true.
Proof. intros He. induction l as [|x l IH]; cbn [leqb]; [reflexivity|]. rewrite He, IH. reflexivity. Qed.

Lemma oeqb_refl {A} (e : A -> A -> bool) : (forall x, e x x = true) -> forall o, oeqb e o o = true.
Proof. intros He [x|]; cbn [oeqb]; auto. Qed.

Lemma kveqb_refl (a : N * list H) : (fst a =? fst a) && leqb heqb (snd a) (snd a) = true.
Proof. rewrite N.eqb_refl. apply (leqb_refl heqb heqb_refl). Qed.

Lemma agree_wf B ksz rhs (m : inmem H) :
  wf H hk m -> 0 < rhs -> rhs <= B -> ksz + 24 <= B -> agree B ksz rhs m = true.
Proof.
  intros Hw H1 H2 H3.
  destruct (serialize_equiv H hk B ksz rhs 100 m Hw H1 H2 H3) as (Hl & Ha & Hc & Hload).
  unfold agree. cbv zeta. rewrite Hload, Hc, N.eqb_refl, (leqb_refl _ kveqb_refl), !andb_true_r.
  apply forallb_forall. intros k _.
  rewrite Hl, Ha, (oeqb_refl heqb heqb_refl), (oeqb_refl _ (leqb_refl heqb heqb_refl)). reflexivity.
Qed.

Lemma sorted_map_seq (f : nat -> N * list H) n :
  (forall i j, (i < j)%nat -> fst (f i) < fst (f j)) ->
  forall s, Sorted.StronglySorted (fun a b => fst a < fst b) (map f (seq s n)).
Proof.
  intros Hf. induction n as [|n IH]; intros s; cbn [seq map]; constructor; [apply IH|].
  apply Forall_map, Forall_forall. intros i Hi. apply in_seq in Hi. apply Hf. lia.
Qed.

Lemma wf_mk vers n : (forall i, vers i <> 0%nat) -> wf H hk (mk n vers).
Proof.
  intros Hv. split.
  - apply sorted_map_seq. intros i j Hij. cbn [fst]. lia.
  - apply Forall_map, Forall_forall. intros i _. cbn [fst snd]. split.
    + specialize (Hv i). destruct (vers i); [congruence|discriminate].
    + apply Forall_map, Forall_forall. intros j _. reflexivity.
Qed.

Theorem C09_bounded_sweep :
  forall n, In n (seq 1 120) ->
    agree 64 2 10 (mk n vers1) = true /\ agree 64 2 10 (mk n vers2) = true /\ agree 64 2 10 (mk n vers3) = true.
Proof.
  intros n _. repeat split; apply agree_wf; try lia; apply wf_mk; intros i.
  - discriminate.
  - discriminate.
  - unfold vers3. destruct (Nat.eqb _ _); discriminate.
Qed.

Print Assumptions C09_equiv.
Print Assumptions C09_equiv_general.
Print Assumptions C09_fanout_is_the_codes.
Print Assumptions C09_node_size_is_the_codes.
Print Assumptions C09_bounded_sweep.
