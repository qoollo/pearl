(* C07 No harm: stored blob bytes are never modified, truncated or deleted. Statements: each follows in a line from the layers below. *)
Require Import Pearl.Base.Prelude Pearl.Storage.Model Pearl.Storage.Spec Pearl.Storage.Inv Pearl.Storage.InvProofs
               Pearl.Blob.Bytes Pearl.Storage.NoHarmProofs Pearl.Io.Trace Pearl.Io.TraceProofs.

Require Pearl.Generated.Facts.
Require Pearl.Storage.Theorems Pearl.Storage.CrashProofs.
(* After ANY history (data operations, lifecycle, background requests, restarts with and without close,
   index removal), every blob that existed at any earlier point still exists with the same id and its
   record list has the earlier one as a prefix ...
   (`no_cut ops`, `s_bad s = []`: this is about what the STORAGE does. A crash may cut a blob file (OCut), and the next
   start moves a file it cannot read back to the corrupted directory -- renamed, never modified:
   C07_quarantined_ids_never_reused, C06_cut_inside_quarantines.) *)
Theorem C07_append_only :
  forall (K : N) (cfg : config) (ops : list op) (s : storage) (b : blob),
    NoActiveWhenClosed s -> no_cut ops -> s_bad s = [] -> In b (blobs_in_order s) ->
    exists b', In b' (blobs_in_order (fst (run K cfg s ops))) /\ b_id b' = b_id b /\ prefix_of (b_recs b) (b_recs b').
Proof. exact (fun K cfg ops s b HN Hc HB => run_lext K cfg ops s HN Hc HB b). Qed.

(* ... and at byte level: the earlier content of the blob FILE is a prefix of the later content *)
Theorem C07_file_bytes_prefix :
  forall (K : N) (rs t : list rec), prefix_of (blob_file_bytes K rs) (blob_file_bytes K (rs ++ t)).
Proof. exact blob_bytes_prefix. Qed.

Theorem C07_queries_pure :
  forall (K : N) (cfg : config) (s : storage) (o : op), is_query o = true -> fst (step K cfg s o) = s.
Proof. exact queries_pure. Qed.

(* a blob created by a step of a running storage never takes an id that exists: its id is at least the old next id *)
Theorem C07_new_blob_id_fresh :
  forall (K : N) (cfg : config) (s : storage) (o : op) (b' : blob),
    IdsOk s -> s_open s = true ->
    In b' (blobs_in_order (fst (step_q K cfg s o))) ->
    (forall b, In b (blobs_in_order s) -> b_id b <> b_id b') ->
    s_next s <= b_id b'.
Proof. intros K cfg s o b' _. apply new_blob_id_fresh. Qed.

(* the trace predicate that judges REAL traces (extracted): acceptance means every append to a blob file landed
   at the end of the file, nothing wrote into the middle of a blob, no blob file was re-created *)
Theorem C07_trace_append_at_eof :
  forall (tr1 tr2 : list ev) (i off len : N),
    judge_from ev_harmless [] (tr1 ++ EvAppend (FBlob, i) off len :: tr2) = true ->
    match fget (run_evs [] tr1) (FBlob, i) with Some (sz, _) => off = sz | None => True end.
Proof. exact (harmless_meaning []). Qed.
Theorem C07_trace_no_positional_write :
  forall (tr1 tr2 : list ev) (i off len : N),
    judge_from ev_harmless [] (tr1 ++ EvWriteAt (FBlob, i) off len :: tr2) = false.
Proof. exact (harmless_no_positional []). Qed.
Theorem C07_trace_no_recreate :
  forall (tr1 tr2 : list ev) (i : N),
    judge_from ev_harmless [] (tr1 ++ EvCreate (FBlob, i) :: tr2) = true -> fget (run_evs [] tr1) (FBlob, i) = None.
Proof. exact (harmless_no_recreate []). Qed.

(* Structural facts re-extracted from the Rust source on every run (tools/extract_src.py, Generated/Facts.v): orderings
   inside the code that the models above assume. A change of the code that invalidates one makes its boolean `false`. *)
(* no append can start below the end of the file: the offset is reserved first, and falls back to the physical length after a failure *)
Theorem C07_source_append_reserves_then_writes : Pearl.Generated.Facts.APPEND_RESERVES_THEN_WRITES = true.
Proof. reflexivity. Qed.
(* appends to a file never overlap, also after a caller was dropped: their ranges are handed out in the order in which
   the bytes reach the file (finding F37) *)
Theorem C07_source_append_waits_for_appends_in_flight : Pearl.Generated.Facts.APPEND_WAITS_FOR_APPENDS_IN_FLIGHT = true.
Proof. reflexivity. Qed.
(* a blob id ever used by a file of the directory is never handed out again *)
Theorem C07_source_quarantined_ids_count : Pearl.Generated.Facts.QUARANTINED_IDS_COUNT_FOR_NEXT_ID = true.
Proof. reflexivity. Qed.

Section Quarantine.
Import Pearl.Storage.Theorems Pearl.Storage.CrashProofs.

(* with crash damage anywhere in the history: a blob whose file no crash touched -- not cut by this history, not left
   unreadable by an earlier one -- still exists, with the same id, its old records a prefix of the new ones *)
Theorem C07_append_only_untouched_blobs :
  forall (K : N) (cfg : config) (ops : list op) (s : storage) (b : blob),
    NoActiveWhenClosed s ->
    In b (blobs_in_order s) -> ~ In (b_id b) (s_bad s) -> ~ In (b_id b) (cut_ids ops) ->
    exists b', In b' (blobs_in_order (fst (run K cfg s ops))) /\ b_id b' = b_id b /\ prefix_of (b_recs b) (b_recs b').
Proof. exact run_lext_uncut. Qed.

(* the id of a file of the corrupted directory is never handed out again: after EVERY history (crash damage included)
   no blob has such an id, a running storage hands out ids above all of them, and the counter of corrupted blobs is
   the number of those files *)
Theorem C07_quarantined_ids_never_reused :
  forall (K : N) (cfg : config) (ops : list op),
    let s := reach K cfg ops in
    (forall b, In b (blobs_in_order s) -> ~ In (b_id b) (s_quar s)) /\
    (s_open s = true -> forall q, In q (s_quar s) -> q < s_next s) /\
    s_corrupted s = N.of_nat (length (s_quar s)).
Proof. exact quarantined_ids_never_reused. Qed.

(* nothing ever leaves the corrupted directory (the storage only moves files there) ... *)
Theorem C07_quarantine_only_grows :
  forall (K : N) (cfg : config) (ops ops2 : list op),
    exists t, s_quar (reach K cfg (ops ++ ops2)) = s_quar (reach K cfg ops) ++ t.
Proof. exact quarantine_only_grows. Qed.

(* ... so an id once quarantined is the id of no blob of any later state *)
Theorem C07_quarantined_id_stays_unused :
  forall (K : N) (cfg : config) (ops ops2 : list op) (q : N),
    In q (s_quar (reach K cfg ops)) -> forall b, In b (blobs_in_order (reach K cfg (ops ++ ops2))) -> b_id b <> q.
Proof. exact quarantined_id_stays_unused. Qed.

(* the invariant on ids (strictly increasing, next id above all blobs AND all quarantined files, no unreadable file in
   the work directory of a running storage) after every history, crash damage included *)
Theorem C07_ids_after_crash_damage :
  forall (K : N) (cfg : config) (ops1 : list op) (id : N) (keep : option nat) (ops2 : list op),
    IdsOk (reach K cfg (ops1 ++ OCut id keep :: ops2)).
Proof. intros K cfg ops1 id keep ops2. apply reach_IdsOk. Qed.
End Quarantine.

Print Assumptions C07_trace_append_at_eof.
Print Assumptions C07_trace_no_positional_write.
Print Assumptions C07_trace_no_recreate.
Print Assumptions C07_append_only.
Print Assumptions C07_file_bytes_prefix.
Print Assumptions C07_queries_pure.
Print Assumptions C07_new_blob_id_fresh.
Print Assumptions C07_source_append_reserves_then_writes.
Print Assumptions C07_source_quarantined_ids_count.
Print Assumptions C07_append_only_untouched_blobs.
Print Assumptions C07_quarantined_ids_never_reused.
Print Assumptions C07_quarantine_only_grows.
Print Assumptions C07_quarantined_id_stays_unused.
Print Assumptions C07_ids_after_crash_damage.
Print Assumptions C07_source_append_waits_for_appends_in_flight.
