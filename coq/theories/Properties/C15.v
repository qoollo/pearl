(* C15 Accounting: counts, ids and sizes always match the operation history. Statements: each follows in a line from the layers below. *)
Require Import Pearl.Base.Prelude Pearl.Storage.Model Pearl.Storage.Spec Pearl.Storage.Inv
               Pearl.Storage.InvProofs Pearl.Storage.CountsProofs Pearl.Storage.Theorems.
Require Pearl.Storage.WorkerProofs Pearl.Storage.CrashProofs.

(* records_count, the per-blob counts, the active-blob count, blobs_count, next_blob_id and
   corrupted_blobs_count equal the values implied by the log (records physically appended per blob,
   deletion markers included; blobs that exist) in every state whose indexes describe their blobs.
   blobs_count is the number of blobs, not of slots, and the active entry carries the blob's own id
   (commits b2a4900 / 7f20c40 of the code; finding F3): a vacated slot in the closed list needs no proviso. *)
Theorem C15_counts :
  forall (K : N) (s : storage), BlobsOk K s -> counts s = spec_counts s.
Proof. exact counts_spec. Qed.

Theorem C15_counts_after_every_history :
  forall (K : N) (cfg : config) (ops : list op),
    counts (reach K cfg ops) = spec_counts (reach K cfg ops).
Proof. exact reach_counts. Qed.

Theorem C15_invariant_after_every_history :
  forall (K : N) (cfg : config) (ops : list op), Inv K (reach K cfg ops).
Proof. exact reach_Inv. Qed.

(* the number of headers an index holds is the number of records appended to its blob *)
Theorem C15_index_count : forall rs : list rec, imap_count (index_of rs) = N.of_nat (length rs).
Proof. exact imap_count_index_of. Qed.

(* ids: strictly increasing along the blobs, and on a running storage next_blob_id above all of them, after every history *)
Theorem C15_next_id_above_all :
  forall (K : N) (cfg : config) (ops : list op),
    IdsOk (reach K cfg ops).
Proof. exact reach_IdsOk. Qed.

(* the history of finding F3 (commits b2a4900 / 7f20c40 of the code): after close_active + restore_active the
   closed list holds a vacated slot; it is not counted, and the active blob is reported under its own id:
   one blob, the pair (0, 1) *)
Theorem C15_blobs_count_after_restore :
  let cfg := {| c_dup := true; c_maxrec := 1000; c_maxsize := 1000000 |} in
  let s := fst (run 4 cfg init_storage [OOpen false; OWrite 1 7 None 8 5 1; OCloseActive; ORestoreActive]) in
  s_closed s = [None] /\
  counts s = spec_counts s /\
  counts s = RCounts 1 [(0, 1)] (Some 1) 1 1 0 true.
Proof. exact blobs_count_after_restore. Qed.

Section Quarantine.
Import Pearl.Storage.CrashProofs.

(* the counters match the log after every history with crash damage at any place ... *)
Theorem C15_counts_after_crash_damage :
  forall (K : N) (cfg : config) (ops1 : list op) (id : N) (keep : option nat) (ops2 : list op),
    counts (reach K cfg (ops1 ++ OCut id keep :: ops2)) = spec_counts (reach K cfg (ops1 ++ OCut id keep :: ops2)).
Proof. intros K cfg ops1 id keep ops2. apply reach_counts. Qed.

(* ... corrupted_blobs_count is the number of files in the corrupted directory, after every history ... *)
Theorem C15_corrupted_count_is_quarantine_size :
  forall (K : N) (cfg : config) (ops : list op),
    let s := reach K cfg ops in
    (forall b, In b (blobs_in_order s) -> ~ In (b_id b) (s_quar s)) /\
    (s_open s = true -> forall q, In q (s_quar s) -> q < s_next s) /\
    s_corrupted s = N.of_nat (length (s_quar s)).
Proof. exact quarantined_ids_never_reused. Qed.

(* ... and a blob file cut inside a record adds exactly one to it at the next start *)
Theorem C15_quarantine_counts_one :
  forall (K : N) (cfg : config) (ops : list op) (e : op) (id : N) (lazy : bool),
    let s := reach K cfg ops in
    let s' := reach K cfg (ops ++ [e; OCut id None; OOpen lazy]) in
    s_open s = true -> WorkerProofs.ends_session e -> (exists b, In b (blobs_in_order s) /\ b_id b = id) ->
    s_quar s' = s_quar s ++ [id] /\
    s_corrupted s' = s_corrupted s + 1 /\
    abs s' = flat_map b_recs (without id (blobs_in_order s)) /\
    (forall b, In b (blobs_in_order s) -> b_id b <> id ->
       exists b', In b' (blobs_in_order s') /\ b_id b' = b_id b /\ b_recs b' = b_recs b) /\
    id < s_next s' /\
    (forall ops2 b', In b' (blobs_in_order (reach K cfg ((ops ++ [e; OCut id None; OOpen lazy]) ++ ops2))) -> b_id b' <> id).
Proof. exact cut_inside_quarantines. Qed.

(* computed: one blob quarantined, one served: records 1, blobs 1, next id 2, corrupted 1 *)
Theorem C15_quarantine_computed :
  let s := reach 4 x_cfg x_hist_b in
  x_ids s = [1] /\ x_keys s = [2] /\ s_quar s = [0] /\ s_corrupted s = 1 /\ s_next s = 2 /\ s_bad s = [] /\
  get_latest_entry s 1 None = NotFound /\ is_found (get_latest_entry s 2 None) = true /\
  counts s = RCounts 1 [(1, 1)] (Some 1) 1 2 1 true /\
  x_ids (reach 4 x_cfg (x_hist_b ++ [OForceUpdate 0])) = [1; 2] /\
  s_quar (reach 4 x_cfg (x_hist_b ++ [OForceUpdate 0; OClose; OOpen true])) = [0].
Proof. exact quarantine_computed. Qed.
End Quarantine.

Print Assumptions C15_counts.
Print Assumptions C15_counts_after_every_history.
Print Assumptions C15_invariant_after_every_history.
Print Assumptions C15_index_count.
Print Assumptions C15_next_id_above_all.
Print Assumptions C15_blobs_count_after_restore.
Print Assumptions C15_counts_after_crash_damage.
Print Assumptions C15_corrupted_count_is_quarantine_size.
Print Assumptions C15_quarantine_counts_one.
Print Assumptions C15_quarantine_computed.
