(* C10 Filters never give a false negative, in memory, on file, merged or off-loaded.
   Statements: each follows in a line from the layers below; the computed examples are evaluated here. *)
Require Import Pearl.Base.Prelude Pearl.Base.LE Pearl.Generated.Pure Pearl.Filter.Bloom Pearl.Filter.BloomProofs
               Pearl.Filter.Hier Pearl.Filter.HierProofs Pearl.Filter.Combined Pearl.Filter.CombinedProofs Pearl.Base.AHash
               Pearl.Storage.Model Pearl.Storage.Spec Pearl.Storage.Filtered Pearl.Storage.FilteredProofs.
Require Pearl.Generated.Facts.

Section C10.
Context {key : Type}.
Variable hash : N -> key -> N.   (* every hash family *)

(* In-memory bloom filter: a key that was added is never answered NotContains, for every bit count
   (including 0 and counts not divisible by 64), every number of hashers, every hash family. *)
Theorem C10_bloom_no_false_negative :
  forall (b : bloom) (ks : list key) (k : key),
    bloom_wf b -> In k ks ->
    bloom_contains_in_memory hash (fold_left (bloom_add hash) ks b) k <> Some NotContains.
Proof. exact (bloom_no_false_negative hash). Qed.

Theorem C10_bloom_fast_no_false_negative :
  forall (b : bloom) (ks : list key) (k : key),
    bloom_wf b -> In k ks ->
    bloom_contains_fast hash (fold_left (bloom_add hash) ks b) k = NeedAdditionalCheck.
Proof. exact (bloom_fast_no_false_negative hash). Qed.

(* The probe of an off-loaded filter through the serialised bytes (bincode layout of `Save`, the
   translated offset_and_mask_u8 / get_bit_u8) answers exactly like the in-memory probe (translated
   offset_and_mask), for every key. *)
Theorem C10_file_probe_eq_memory_probe :
  forall (b : bloom) (v : bitvec) (raw : bytes) (k : key),
    bl_inner b = Some v -> bloom_wf b -> bloom_to_raw b = Some raw -> bl_bits b <> 0 ->
    bloom_contains_in_file hash (file_of raw) (bloom_offload b) k = bloom_contains_in_memory hash b k.
Proof. exact (file_probe_eq_memory_probe hash). Qed.

(* Merging (checked_add_assign) keeps every key of both sides *)
Theorem C10_bloom_merge_keeps_keys :
  forall (a b m : bloom) (k : key),
    bloom_wf a -> bloom_wf b -> bloom_merge a b = Some m ->
    all_set hash a k \/ all_set hash b k -> all_set hash m k.
Proof. exact (bloom_merge_all_set hash). Qed.

End C10.

(* Merged filters of blob groups (src/filter/hierarchical.rs), for EVERY filter type: if merging two good filters
   answers "maybe" whenever one side does and off-loading only turns answers into "maybe", then after every sequence
   of push / pop / remove / offload-all / offload_buffer(needed, level) (with its early returns), a child that is
   still present and whose own filter, as pushed, answers "maybe" for k is yielded by iter_possible_childs k: no
   group filter hides it. *)
Theorem C10_hierarchy_never_hides_a_child :
  forall (key F : Type) (contains : F -> key -> bool) (merge : F -> F -> option F) (offload : F -> F)
         (mem : F -> N) (good : F -> Prop),
    (forall (a b c : F) (k : key), good a -> good b -> merge a b = Some c ->
       contains a k = true \/ contains b k = true -> contains c k = true) ->
    (forall a b c : F, good a -> good b -> merge a b = Some c -> good c) ->
    (forall (f : F) (k : key), good f -> contains f k = true -> contains (offload f) k = true) ->
    (forall f : F, good f -> good (offload f)) ->
    forall (group : nat) (ops : list (hop F)) (c : nat) (f : F) (k : key),
      (0 < group)%nat -> Forall good (pushed F ops) ->
      nth_error (pushed F ops) c = Some f ->
      present F (run_h F merge offload mem group ops) c = true ->
      contains f k = true ->
      In c (iter_possible key F contains (run_h F merge offload mem group ops) k).
Proof. exact iter_complete. Qed.

(* every child id appears exactly once among the leaves, in push order, whatever was popped / removed / off-loaded *)
Theorem C10_hierarchy_leaves_exact :
  forall (F : Type) (merge : F -> F -> option F) (offload : F -> F) (mem : F -> N) (group : nat) (ops : list (hop F)),
    concat (map (hn_leaves F) (h_nodes F (run_h F merge offload mem group ops))) = seq 0 (length (pushed F ops)) /\
    length (h_children F (run_h F merge offload mem group ops)) = length (pushed F ops).
Proof. exact leaves_exact. Qed.

(* the combined filter (optional Bloom + key range) meets those hypotheses, for every hash family *)
Theorem C10_combined_no_false_negative :
  forall (hash : N -> bytes -> N) (kbytes : N -> bytes) (f : combined) (ks : list N) (k : N),
    cf_wf f -> In k ks -> cf_contains hash kbytes (fold_left (cf_add hash kbytes) ks f) k = true.
Proof. exact cf_add_contains. Qed.

Theorem C10_combined_merge_keeps_keys :
  forall (hash : N -> bytes -> N) (kbytes : N -> bytes) (a b c : combined) (k : N),
    cf_wf a -> cf_wf b -> cf_merge a b = Some c ->
    cf_contains hash kbytes a k = true \/ cf_contains hash kbytes b k = true -> cf_contains hash kbytes c k = true.
Proof. exact cf_merge_sound. Qed.

(* The instance over combined filters with bloom_hash and big-endian keys (ch_new, ch_step, ch_iter, ch_check of
   Filter/Combined.v), which Storage/Filtered.v maintains alongside the storage model and the driver runs through
   `track` and `cfs_answer`: a present child built from keys ks is yielded for every k in ks by the iterator
   (check_filter_fast, the read paths) and the asynchronous check_filter answers "maybe" *)
Theorem C10_blob_groups_no_false_negative :
  forall (K : N) (group : nat) (ops : list (hop combined)) (c : nat) (f0 : combined) (ks : list N) (k : N),
    (0 < group)%nat -> Forall cf_wf (pushed combined ops) ->
    nth_error (pushed combined ops) c = Some (fold_left (cf_add bloom_hash (ckey_bytes K)) ks f0) ->
    cf_wf f0 -> In k ks -> present combined (ch_run K group ops) c = true ->
    In c (ch_iter K (ch_run K group ops) k) /\ ch_check K (ch_run K group ops) k = true.
Proof. exact ch_no_false_negative. Qed.

(* The filters inside the storage model (Storage/Filtered.v): the hierarchy is maintained alongside the storage
   (a blob closed = a child pushed with the filter of its keys, restore = pop, restart = rebuilt from the blobs,
   offload_buffer(needed, level) at any moment), and the read path that opens only the blobs the hierarchy yields for
   the key -- each asked through its own filter, or through the possibly off-loaded filter kept in its slot -- returns
   EXACTLY what the filterless model returns, after EVERY history; for a read without metadata that is the
   specification's answer. "Storage::read after offload" and check_filters can never hide a stored record. *)
Theorem C10_filtered_read_is_read :
  forall (K : N) (bloom0 : option bloom) (cfg : config) (group : nat) (evs : list fev) (k : N) (meta : option N),
    (0 < group)%nat -> bloom0_wf bloom0 ->
    let s := fst (freach K bloom0 cfg group evs) in
    let h := snd (freach K bloom0 cfg group evs) in
    get_latest_entry_filtered K bloom0 h s k meta = get_latest_entry s k meta.
Proof. exact filtered_read_is_read. Qed.

Theorem C10_filtered_read_through_slot_filters :
  forall (K : N) (bloom0 : option bloom) (cfg : config) (group : nat) (evs : list fev) (k : N) (meta : option N),
    (0 < group)%nat -> bloom0_wf bloom0 ->
    let s := fst (freach K bloom0 cfg group evs) in
    let h := snd (freach K bloom0 cfg group evs) in
    get_latest_entry_filtered_slot K bloom0 h s k meta = get_latest_entry s k meta.
Proof. exact filtered_slot_read_is_read. Qed.

Theorem C10_filtered_read_is_spec :
  forall (K : N) (bloom0 : option bloom) (cfg : config) (group : nat) (evs : list fev) (k : N),
    (0 < group)%nat -> bloom0_wf bloom0 ->
    let s := fst (freach K bloom0 cfg group evs) in
    let h := snd (freach K bloom0 cfg group evs) in
    get_latest_entry_filtered K bloom0 h s k None = spec_read (abs s) k.
Proof. exact filtered_read_is_spec. Qed.

(* the slots of the hierarchy are the slots of the closed-blob list, after every history *)
Theorem C10_hierarchy_slots_are_the_closed_blobs :
  forall (K : N) (bloom0 : option bloom) (cfg : config) (group : nat) (evs : list fev),
    bloom0_wf bloom0 ->
    let s := fst (freach K bloom0 cfg group evs) in
    let h := snd (freach K bloom0 cfg group evs) in
    length (h_children combined h) = length (s_closed s) /\
    (forall c : nat, present combined h c = match nth_error (s_closed s) c with Some (Some _) => true | _ => false end).
Proof. exact slots_correspond. Qed.

(* Storage::check_filters and <Storage as BloomProvider>::check_filter (Storage/Filtered.v cf_answer / cfs_answer: an
   in-memory index answers exactly, an on-disk one through the blob's filter, the hierarchy selects the children):
   a key held by any blob of the storage is never answered "definitely absent" -- in every state, resp. after every
   history with the hierarchy maintained alongside *)
Theorem C10_check_filters_no_false_negative :
  forall (K : N) (bloom0 : option bloom) (s : storage) (b : blob) (k : N),
    bloom0_wf bloom0 -> s_active s = Some b \/ In b (closed_blobs s) -> In k (blob_keys b) ->
    cf_answer K bloom0 s k = true.
Proof. exact cf_answer_no_false_negative. Qed.

Theorem C10_check_filter_no_false_negative :
  forall (K : N) (bloom0 : option bloom) (cfg : config) (group : nat) (evs : list fev) (b : blob) (k : N),
    (0 < group)%nat -> bloom0_wf bloom0 ->
    let s := fst (freach K bloom0 cfg group evs) in
    let h := snd (freach K bloom0 cfg group evs) in
    s_active s = Some b \/ In b (closed_blobs s) -> In k (blob_keys b) ->
    cfs_answer K bloom0 h s k = true.
Proof. exact cfs_answer_no_false_negative. Qed.

(* the premise on the configured bloom filter is met by "no bloom" and by every fresh bloom of fewer than 2^64 bits *)
Theorem C10_bloom0_wf_cases :
  forall bloom0 : option bloom,
    bloom0 = None \/ (exists (bits hashers : N) (c : bytes), bits < 2 ^ 64 /\ bloom0 = Some (bloom_new bits hashers c)) ->
    bloom0_wf bloom0.
Proof. exact bloom0_wf_cases. Qed.

(* non-vacuity of the hierarchy theorems: a concrete history (group 2, 100-bit blooms, a removal, a bounded off-load) *)
Example C10_hierarchy_nonvacuous :
  let f0 := cf_new (Some (bloom_new 100 2 (repeat 0 40))) in
  let mk ks := fold_left (cf_add bloom_hash (ckey_bytes 4)) ks f0 in
  let ops := [HPush _ (mk [1; 7]); HPush _ (mk [9]); HPush _ (mk [7; 300]); HRemove _ 0; HOffloadN _ 16 1] in
  cf_wf f0 /\ ch_iter 4 (ch_run 4 2 ops) 7 = [1; 2]%nat /\ ch_iter 4 (ch_run 4 2 ops) 5 = [].
Proof.
  intros f0 mk ops. destruct ch_nonvacuous as (H7 & _ & H5 & _).
  split; [apply cf_new_wf; reflexivity | split; [exact H7 | exact H5]].
Qed.

(* non-vacuity: a concrete well-formed filter with 100 bits (not a multiple of 64) *)
Example C10_nonvacuous : bloom_wf (bloom_new 100 2 (repeat 0 40)) /\ bl_bits (bloom_new 100 2 (repeat 0 40)) <> 0.
Proof. split; [apply bloom_new_wf; reflexivity | discriminate]. Qed.

Print Assumptions C10_bloom_no_false_negative.
Print Assumptions C10_bloom_fast_no_false_negative.
Print Assumptions C10_file_probe_eq_memory_probe.
Print Assumptions C10_bloom_merge_keeps_keys.
Print Assumptions C10_hierarchy_never_hides_a_child.
Print Assumptions C10_hierarchy_leaves_exact.
Print Assumptions C10_combined_no_false_negative.
Print Assumptions C10_combined_merge_keeps_keys.
Print Assumptions C10_blob_groups_no_false_negative.
Print Assumptions C10_filtered_read_is_read.
Print Assumptions C10_filtered_read_through_slot_filters.
Print Assumptions C10_filtered_read_is_spec.
Print Assumptions C10_hierarchy_slots_are_the_closed_blobs.
Print Assumptions C10_bloom0_wf_cases.
Print Assumptions C10_check_filters_no_false_negative.
Print Assumptions C10_check_filter_no_false_negative.

(* a group filter that was given up stays given up: it is never re-initialised from a later child alone (structural fact re-extracted on every run) *)
Theorem C10_source_group_filter_initialised_only_when_empty : Pearl.Generated.Facts.GROUP_FILTER_INITIALISED_ONLY_WHEN_EMPTY = true.
Proof. reflexivity. Qed.
Print Assumptions C10_source_group_filter_initialised_only_when_empty.

(* ---- children WITHOUT a filter (get_filter() = None, e.g. a storage that has no closed blob yet pushed into a second-level
   hierarchy): the combined filter lifted to `option` (Filter/CombinedOpt.v) is one more instance of the abstract filter,
   and it is the instance extracted for the direct hierarchy stream (`hier pushnone`). A present filterless child is
   yielded for EVERY key, whatever else was pushed, popped, removed or off-loaded. ---- *)
Require Pearl.Filter.CombinedOpt Pearl.Filter.CombinedOptProofs.
Module CO := Pearl.Filter.CombinedOpt.
Module COP := Pearl.Filter.CombinedOptProofs.
Theorem C10_hierarchy_with_filterless_children : forall (K : N) (group : nat) (ops : list (hop CO.ocf)) (c : nat) (f : CO.ocf) (k : N),
  (0 < group)%nat -> Forall COP.ocf_wf (pushed CO.ocf ops) ->
  nth_error (pushed CO.ocf ops) c = Some f -> present CO.ocf (CO.oh_run group ops) c = true ->
  CO.ocf_contains K f k = true ->
  In c (CO.oh_iter K (CO.oh_run group ops) k) /\ CO.oh_check K (CO.oh_run group ops) k = true.
Proof. exact COP.oh_no_false_negative. Qed.
Theorem C10_filterless_child_never_hidden : forall (K : N) (group : nat) (ops : list (hop CO.ocf)) (c : nat) (k : N),
  (0 < group)%nat -> Forall COP.ocf_wf (pushed CO.ocf ops) ->
  nth_error (pushed CO.ocf ops) c = Some None -> present CO.ocf (CO.oh_run group ops) c = true ->
  In c (CO.oh_iter K (CO.oh_run group ops) k).
Proof. exact COP.oh_filterless_child_never_hidden. Qed.
Print Assumptions C10_hierarchy_with_filterless_children.
Print Assumptions C10_filterless_child_never_hidden.
