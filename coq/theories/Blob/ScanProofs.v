(* Crash recovery at byte level: scanning ANY byte-prefix of a well-formed blob file (Blob/Scan.v).

   A record lies in a file as header ++ metadata ++ data.  The scan is first followed over one such triple that is
   "laid" (valid header, sizes and checksum matching, fields within their widths), complete or cut by the end of the
   file; [write_record] with a [new_header] produces laid records, and so does the recovery tool (Blob/ToolsProofs.v).
   The blob is then an abstract list of records (key, timestamp, meta, data) laid out by [write_record] after the
   20-byte blob header; no storage model is involved, and a record written with [deleted_header] (Blob/Bytes.v) is
   not covered.

   The result gives, for EVERY cut length n and both validation modes, the exact outcome of [blob_open_scan]:
     n < 20                                          -> RFail EBincode
     n = boundary j                                  -> ROk (first j headers)
     boundary j < n < boundary (j+1)                 -> RFail EBincode   (cut anywhere inside a record:
                                                        header, metadata or data)

   The last line rests on the scan's check that a record whose header it accepted ends inside the file (commit
   865f94b of the code).  Without that check a record whose header is complete and whose body is cut is accepted
   whenever its data is not read back (validation off, or empty data): finding F6. *)
Require Import Pearl.Base.Prelude Pearl.Base.LE Pearl.Base.LEProofs Pearl.Base.Crc Pearl.Base.CrcProofs
               Pearl.Generated.Consts Pearl.Format.Record Pearl.Format.RecordProofs Pearl.Blob.Scan
               Pearl.Blob.ScanBasics.

Lemma slice_zero b off : slice b off 0 = Some [].
Proof. reflexivity. Qed.

Lemma slice_short b off len :
  len <> 0 -> N.of_nat (length b) < off + len -> slice b off len = None.
Proof.
  intros Hz H. unfold slice. destruct (N.eqb_spec len 0) as [|_]; [contradiction|].
  destruct (N.leb_spec (off + len) (N.of_nat (length b))) as [Hle|_]; [lia|reflexivity].
Qed.

(* a record as it lies in a file: header, metadata, data *)
Definition wrec := (header * bytes * bytes)%type.
Definition whdr (w : wrec) : header := fst (fst w).
Definition wmeta (w : wrec) : bytes := snd (fst w).
Definition wdata (w : wrec) : bytes := snd w.
Definition wbytes (w : wrec) : bytes := let '(h, m, d) := w in encode_header h ++ m ++ d.

Lemma wbytes_length h m d : length (wbytes (h, m, d)) = (57 + length (h_key h) + length m + length d)%nat.
Proof. cbn [wbytes]. rewrite !app_length, encode_header_length. lia. Qed.

(* what a successful read guarantees about the record *)
Definition good_item (w : wrec) : Prop :=
  let '(h, m, d) := w in
  validate_header h = None /\ h_msize h = N.of_nat (length m) /\ h_dsize h = N.of_nat (length d) /\
  h_dcrc h = crc32c d.

(* a record the scan accepts: what a read guarantees, fields within their widths, key length K *)
Definition laid (K : N) (w : wrec) : Prop :=
  let '(h, m, d) := w in good_item (h, m, d) /\ wf_header h /\ N.of_nat (length (h_key h)) = K.

Lemma scan_loop_stop fuel b K v cur acc :
  (0 < fuel)%nat -> N.of_nat (length b) <= cur -> scan_loop fuel b K v cur acc = ROk acc.
Proof.
  intros Hf H. destruct fuel as [|f]; [lia|]. cbn [scan_loop].
  destruct (N.ltb_spec cur (N.of_nat (length b))) as [C|_]; [lia|reflexivity].
Qed.

(* where the reads find the parts of a laid record *)
Lemma laid_slices K pre h m d suf : laid K (h, m, d) ->
  let b := pre ++ wbytes (h, m, d) ++ suf in
  let p := N.of_nat (length pre) + (57 + K) in
  slice b (N.of_nat (length pre)) (57 + K) = Some (encode_header h) /\
  slice b p (h_msize h) = Some m /\ slice b (p + h_msize h) (h_dsize h) = Some d.
Proof.
  intros ((_ & Hms & Hds & _) & _ & Hk). cbn [wbytes]. rewrite <- !app_assoc. split; [|split].
  - apply slice_at; [reflexivity|]. rewrite encode_header_length. lia.
  - rewrite (app_assoc pre). apply slice_at; [|exact Hms]. rewrite app_length, encode_header_length. lia.
  - rewrite (app_assoc pre), (app_assoc _ m). apply slice_at; [|exact Hds].
    rewrite !app_length, encode_header_length. lia.
Qed.

Lemma scan_loop_step K v f pre w suf acc : laid K w ->
  scan_loop (S f) (pre ++ wbytes w ++ suf) K v (N.of_nat (length pre)) acc
  = scan_loop f (pre ++ wbytes w ++ suf) K v (N.of_nat (length (pre ++ wbytes w))) (acc ++ [whdr w]).
Proof.
  destruct w as [[h m] d]. intros Hw. destruct (laid_slices K pre h m d suf Hw) as (S1 & _ & S2).
  destruct Hw as ((Hv & Hms & Hds & Hdc) & Hwf & Hk). cbn [whdr fst].
  rewrite app_length, wbytes_length. set (b := pre ++ wbytes (h, m, d) ++ suf) in *.
  assert (Hlb : length b = (length pre + (57 + length (h_key h) + length m + length d) + length suf)%nat).
  { subst b. rewrite !app_length, wbytes_length. lia. }
  cbn [scan_loop]. destruct (N.ltb_spec (N.of_nat (length pre)) (N.of_nat (length b))) as [_|C]; [|lia].
  rewrite S1, (decode_encode_header h Hwf), Hv.
  (* the record ends inside the file *)
  destruct (N.ltb_spec (N.of_nat (length b)) (N.of_nat (length pre) + (57 + K) + h_msize h + h_dsize h)) as [C|_]; [lia|].
  replace (N.of_nat (length pre) + (57 + K) + h_msize h + h_dsize h)
    with (N.of_nat (length pre + (57 + length (h_key h) + length m + length d))) by lia.
  destruct v; [|reflexivity].
  rewrite S2, Hdc, N.eqb_refl. reflexivity.
Qed.

(* the first n bytes of a file, where n lies strictly inside a laid record: the header is cut, or the record does not
   end inside the file *)
Lemma scan_loop_torn K v f pre w suf n acc : laid K w -> (length pre < n < length pre + length (wbytes w))%nat ->
  scan_loop (S f) (firstn n (pre ++ wbytes w ++ suf)) K v (N.of_nat (length pre)) acc = RFail EBincode.
Proof.
  destruct w as [[h m] d]. intros Hw Hn. destruct (laid_slices K pre h m d suf Hw) as (S1 & _).
  destruct Hw as ((Hv & Hms & Hds & _) & Hwf & Hk).
  rewrite wbytes_length in Hn. set (b := pre ++ wbytes (h, m, d) ++ suf) in *.
  assert (Hlb : length (firstn n b) = n).
  { subst b. rewrite firstn_length, !app_length, wbytes_length. lia. }
  cbn [scan_loop]. rewrite Hlb. destruct (N.ltb_spec (N.of_nat (length pre)) (N.of_nat n)) as [_|C]; [|lia].
  destruct (Nat.lt_ge_cases n (length pre + (57 + length (h_key h)))) as [Hc|Hc].
  { rewrite slice_short by (rewrite ?Hlb; lia). reflexivity. }
  rewrite slice_firstn, S1, (decode_encode_header h Hwf), Hv by lia.
  destruct (N.ltb_spec (N.of_nat n) (N.of_nat (length pre) + (57 + K) + h_msize h + h_dsize h)) as [_|C]; [reflexivity|lia].
Qed.

Lemma scan_loop_laid K v : forall ws pre acc fuel,
  Forall (laid K) ws -> (length (flat_map wbytes ws) < fuel)%nat ->
  scan_loop fuel (pre ++ flat_map wbytes ws) K v (N.of_nat (length pre)) acc = ROk (acc ++ map whdr ws).
Proof.
  induction ws as [|w ws IH]; intros pre acc fuel Hws Hf; cbn [flat_map map] in *.
  - rewrite !app_nil_r. apply scan_loop_stop; lia.
  - inversion Hws as [|w' ws' Hw Hrest]; subst w' ws'. destruct fuel as [|f]; [lia|].
    assert (57 <= length (wbytes w))%nat by (destruct w as [[h m] d]; rewrite wbytes_length; lia).
    rewrite app_length in Hf. rewrite scan_loop_step by exact Hw.
    rewrite app_assoc, IH by (exact Hrest || lia). rewrite <- app_assoc. reflexivity.
Qed.

Lemma scan_start_laid K hdr w suf : length hdr = 20%nat -> laid K w -> scan_start (hdr ++ wbytes w ++ suf) K = None.
Proof.
  destruct w as [[h m] d]. intros Hl ((Hv & _) & (Hm & Hkl & _) & Hk).
  apply validate_header_None in Hv. destruct Hv as (Hmg & _).
  unfold scan_start. destruct (Nat.ltb_spec (length (hdr ++ wbytes (h, m, d) ++ suf)) 36) as [C|_].
  { rewrite !app_length, wbytes_length in C. lia. }
  cbn [wbytes]. unfold encode_header. rewrite <- !app_assoc.
  rewrite (u64_at_app hdr _ _ 20 Hl Hm), Hmg, N.eqb_refl. cbn [negb].
  rewrite (app_assoc hdr), u64_at_app by (rewrite ?app_length, ?le64_length, ?Hl; reflexivity || exact Hkl).
  rewrite Hk, N.eqb_refl. reflexivity.
Qed.

Theorem scan_open_laid K v hdr ws :
  length hdr = 20%nat -> blob_header_check hdr = None -> Forall (laid K) ws ->
  blob_open_scan (hdr ++ flat_map wbytes ws) K v = ROk (map whdr ws).
Proof.
  intros Hl Hc Hws. unfold blob_open_scan. rewrite blob_header_check_20, Hc, app_length, Hl by exact Hl.
  destruct ws as [|w ws].
  - reflexivity.
  - inversion Hws as [|w' ws' Hw _]; subst w' ws'.
    assert (57 <= length (flat_map wbytes (w :: ws)))%nat.
    { cbn [flat_map]. destruct w as [[h m] d]. rewrite app_length, wbytes_length. lia. }
    destruct (Nat.ltb_spec 20 (20 + length (flat_map wbytes (w :: ws)))) as [_|C]; [|lia].
    change (flat_map wbytes (w :: ws)) with (wbytes w ++ flat_map wbytes ws) at 1.
    rewrite scan_start_laid by assumption.
    pose proof (scan_loop_laid K v (w :: ws) hdr [] (S (20 + length (flat_map wbytes (w :: ws)))) Hws) as Hs.
    rewrite Hl in Hs. apply Hs. lia.
Qed.

Definition rec := (bytes * N * bytes * bytes)%type.   (* key, timestamp, meta, data *)

Fixpoint blob_of (rs : list rec) (acc : bytes) : bytes * list header :=
  match rs with
  | [] => (acc, [])
  | (key, ts, meta, data) :: r =>
    let '(b, h') := write_record (new_header key ts meta data) meta data (N.of_nat (length acc)) in
    let '(bytes, hs) := blob_of r (acc ++ b) in (bytes, h' :: hs)
  end.
Definition blob_bytes rs := fst (blob_of rs blob_header_bytes).
Definition blob_hdrs rs := snd (blob_of rs blob_header_bytes).
Definition boundary rs j := length (blob_bytes (firstn j rs)).   (* length of the file that holds the first j records *)

Definition rkey (x : rec) : bytes := fst (fst (fst x)).
Definition rts (x : rec) : N := snd (fst (fst x)).
Definition rmeta (x : rec) : bytes := snd (fst x).
Definition rdata (x : rec) : bytes := snd x.

Definition wf_rec (K : N) (x : rec) : Prop :=
  N.of_nat (length (rkey x)) = K /\ rts x < 2^64 /\
  N.of_nat (length (rmeta x)) < 2^64 /\ N.of_nat (length (rdata x)) < 2^64.

(* every key has length K, every field fits its width, and the whole file is shorter than 2^64 bytes
   (otherwise a blob_offset does not fit its field and the decoded header differs from the written one) *)
Definition wf_recs (K : N) (rs : list rec) : Prop :=
  K < 2^64 /\ Forall (wf_rec K) rs /\ N.of_nat (length (blob_bytes rs)) < 2^64.

(* explicit layout: the header written at offset off, and the records as they lie behind the first off bytes *)
Definition hdr_of (off : N) (x : rec) : header :=
  with_hcrc (with_off (new_header (rkey x) (rts x) (rmeta x) (rdata x)) off)
            (header_crc (with_off (new_header (rkey x) (rts x) (rmeta x) (rdata x)) off)).
Definition rec_len (x : rec) : nat := (57 + length (rkey x) + length (rmeta x) + length (rdata x))%nat.

Fixpoint placed (off : nat) (rs : list rec) : list wrec :=
  match rs with [] => [] | x :: r => (hdr_of (N.of_nat off) x, rmeta x, rdata x) :: placed (off + rec_len x) r end.
Fixpoint recs_len (rs : list rec) : nat :=
  match rs with [] => 0%nat | x :: r => (rec_len x + recs_len r)%nat end.

Lemma placed_bytes_length rs : forall off, length (flat_map wbytes (placed off rs)) = recs_len rs.
Proof.
  induction rs as [|x r IH]; intros off; cbn [placed flat_map recs_len length]; [reflexivity|].
  rewrite app_length, wbytes_length, IH. reflexivity.
Qed.

Lemma blob_of_eq rs : forall acc,
  blob_of rs acc = (acc ++ flat_map wbytes (placed (length acc) rs), map whdr (placed (length acc) rs)).
Proof.
  induction rs as [|x r IH]; intros acc.
  - cbn [blob_of placed flat_map map]. rewrite app_nil_r. reflexivity.
  - destruct x as [[[key ts] meta] data]. cbn [blob_of]. rewrite write_record_bytes.
    cbv beta iota. rewrite IH.
    change (encode_header ?h ++ meta ++ data) with (wbytes (h, meta, data)).
    rewrite app_length, wbytes_length, <- app_assoc. reflexivity.
Qed.

Lemma blob_header_length : length blob_header_bytes = 20%nat. Proof. reflexivity. Qed.

Lemma blob_bytes_eq rs : blob_bytes rs = blob_header_bytes ++ flat_map wbytes (placed 20 rs).
Proof. unfold blob_bytes. rewrite blob_of_eq, blob_header_length. reflexivity. Qed.

Lemma blob_hdrs_eq rs : blob_hdrs rs = map whdr (placed 20 rs).
Proof. unfold blob_hdrs. rewrite blob_of_eq, blob_header_length. reflexivity. Qed.

Lemma blob_bytes_length rs : length (blob_bytes rs) = (20 + recs_len rs)%nat.
Proof. rewrite blob_bytes_eq, app_length, blob_header_length, placed_bytes_length. reflexivity. Qed.

Lemma boundary_eq rs j : boundary rs j = (20 + recs_len (firstn j rs))%nat.
Proof. unfold boundary. apply blob_bytes_length. Qed.

Lemma hdr_of_wf K off x : K < 2^64 -> wf_rec K x -> off < 2^64 -> wf_header (hdr_of off x).
Proof.
  intros HK (Hk & Hts & Hms & Hds) Hoff. unfold wf_header, hdr_of.
  cbn [h_magic h_key h_msize h_dsize h_flags h_off h_ts h_dcrc h_hcrc with_hcrc with_off new_header].
  split; [reflexivity|]. split; [rewrite Hk; exact HK|]. split; [exact Hms|]. split; [exact Hds|].
  split; [reflexivity|]. split; [exact Hoff|]. split; [exact Hts|]. split; [apply crc32c_lt|].
  unfold header_crc. apply crc32c_lt.
Qed.

Lemma hdr_of_valid off x : validate_header (hdr_of off x) = None.
Proof. apply validate_header_None. split; reflexivity. Qed.

Lemma laid_hdr_of K off x : K < 2^64 -> wf_rec K x -> off < 2^64 -> laid K (hdr_of off x, rmeta x, rdata x).
Proof.
  intros HK Hx Hoff. split; [|split].
  - split; [apply hdr_of_valid|]. repeat split; reflexivity.
  - apply (hdr_of_wf K); assumption.
  - exact (proj1 Hx).
Qed.

Lemma placed_laid K rs : K < 2^64 -> forall off,
  Forall (wf_rec K) rs -> N.of_nat (off + recs_len rs) < 2^64 -> Forall (laid K) (placed off rs).
Proof.
  intros HK. induction rs as [|x r IH]; intros off Hwf Hsz; cbn [placed]; [constructor|].
  inversion Hwf as [|x' r' Hx Hr]; subst x' r'. cbn [recs_len] in Hsz. constructor.
  - apply laid_hdr_of; [exact HK|exact Hx|lia].
  - apply IH; [exact Hr|lia].
Qed.

(* Induction over the first n bytes of a file that holds the records [rs] behind [pre], for n not inside [pre]: such
   a file is whole records followed by a strict prefix of the next one.  [P pre rs n b]: b is the first n bytes of
   [pre] followed by the records. *)
Lemma cut_ind K (P : bytes -> list rec -> nat -> bytes -> Prop) : K < 2^64 ->
  (forall pre rs, P pre rs (length pre) pre) ->
  (forall pre x rs suf n, let w := (hdr_of (N.of_nat (length pre)) x, rmeta x, rdata x) in
     laid K w -> length (wbytes w) = rec_len x -> (length pre < n < length pre + rec_len x)%nat ->
     P pre (x :: rs) n (firstn n (pre ++ wbytes w ++ suf))) ->
  (forall pre x rs suf n, let w := (hdr_of (N.of_nat (length pre)) x, rmeta x, rdata x) in
     laid K w -> length (wbytes w) = rec_len x -> (length pre < length pre + rec_len x <= n)%nat ->
     P (pre ++ wbytes w) rs n ((pre ++ wbytes w) ++ suf) -> P pre (x :: rs) n (pre ++ wbytes w ++ suf)) ->
  forall rs pre n, Forall (wf_rec K) rs -> N.of_nat (length pre + recs_len rs) < 2^64 ->
    (length pre <= n <= length pre + recs_len rs)%nat ->
    P pre rs n (firstn n (pre ++ flat_map wbytes (placed (length pre) rs))).
Proof.
  intros HK Hend Htorn Hstep. induction rs as [|x rs IH]; intros pre n Hwf Hsz Hn.
  - cbn [recs_len] in Hn. replace n with (length pre) by lia. cbn [placed flat_map]. rewrite app_nil_r, firstn_all. apply Hend.
  - inversion Hwf as [|x' rs' Hx Hrs]; subst x' rs'. cbn [recs_len] in Hsz, Hn. cbn [placed flat_map].
    set (w := (hdr_of (N.of_nat (length pre)) x, rmeta x, rdata x)).
    assert (Hw : laid K w) by (apply laid_hdr_of; [exact HK|exact Hx|lia]).
    assert (Hlw : length (wbytes w) = rec_len x) by apply wbytes_length.
    assert (Hpos : (0 < rec_len x)%nat) by (unfold rec_len; lia).
    destruct (Nat.eq_dec n (length pre)) as [->|Hn0].
    { rewrite firstn_app_le, firstn_all by lia. apply Hend. }
    destruct (Nat.lt_ge_cases n (length pre + rec_len x)) as [Hc|Hc].
    + apply Htorn; [exact Hw|exact Hlw|lia].
    + assert (Hlp : length (pre ++ wbytes w) = (length pre + rec_len x)%nat) by (rewrite app_length, Hlw; reflexivity).
      rewrite app_assoc, firstn_app_ge, <- app_assoc by lia.
      apply Hstep; [exact Hw|exact Hlw|lia|].
      rewrite <- firstn_app_ge, <- Hlp by lia. apply IH; [exact Hrs|lia|lia].
Qed.

(* the exact outcome of the loop started at the end of [pre] with [rs] still to come, on a file cut at [n]:
   the headers of the complete records when the cut is at a record boundary, EBincode when it is strictly
   inside a record *)
Definition scan_spec (pre : nat) (rs : list rec) (acc : list header) (n : nat)
           (r : res (list header)) : Prop :=
  (exists j, (j <= length rs)%nat /\ n = (pre + recs_len (firstn j rs))%nat /\
             r = ROk (acc ++ firstn j (map whdr (placed pre rs))))
  \/ (exists j, (j < length rs)%nat /\
        (pre + recs_len (firstn j rs) < n)%nat /\ (n < pre + recs_len (firstn (S j) rs))%nat /\
        r = RFail EBincode).

Lemma scan_spec_cons pre x rs acc n r :
  scan_spec (pre + rec_len x) rs (acc ++ [hdr_of (N.of_nat pre) x]) n r ->
  scan_spec pre (x :: rs) acc n r.
Proof.
  intros [(j & Hj & Hn & Hr) | (j & Hj & Hn1 & Hn2 & Hr)].
  - left. exists (S j). cbn [length firstn recs_len placed map]. split; [lia|]. split; [lia|].
    rewrite Hr, <- app_assoc. reflexivity.
  - right. exists (S j). cbn [length firstn recs_len] in *. split; [lia|]. split; [lia|]. split; [lia|exact Hr].
Qed.

Lemma scan_cut K v (HK : K < 2^64) : forall rs pre n,
  Forall (wf_rec K) rs -> N.of_nat (length pre + recs_len rs) < 2^64 -> (length pre <= n <= length pre + recs_len rs)%nat ->
  forall acc fuel, (n < length pre + fuel)%nat ->
  scan_spec (length pre) rs acc n
    (scan_loop fuel (firstn n (pre ++ flat_map wbytes (placed (length pre) rs))) K v (N.of_nat (length pre)) acc).
Proof.
  apply (cut_ind K (fun pre rs n b => forall acc fuel, (n < length pre + fuel)%nat ->
           scan_spec (length pre) rs acc n (scan_loop fuel b K v (N.of_nat (length pre)) acc)) HK).
  - intros pre rs acc fuel Hf. rewrite scan_loop_stop by lia.
    left. exists 0%nat. cbn [firstn recs_len]. rewrite app_nil_r. split; [lia|]. split; [lia|reflexivity].
  - intros pre x rs suf n w Hw Hlw Hn acc fuel Hf. destruct fuel as [|f]; [lia|].
    rewrite scan_loop_torn by (exact Hw || lia).
    right. exists 0%nat. cbn [firstn recs_len length]. split; [lia|]. split; [lia|]. split; [lia|reflexivity].
  - intros pre x rs suf n w Hw Hlw Hn IH acc fuel Hf. destruct fuel as [|f]; [lia|].
    apply scan_spec_cons. rewrite scan_loop_step, app_assoc by exact Hw.
    rewrite <- Hlw, <- app_length. apply IH. rewrite app_length. lia.
Qed.

Lemma recs_len_firstn_le rs j : (recs_len (firstn j rs) <= recs_len rs)%nat.
Proof.
  revert j. induction rs as [|x r IH]; intros j.
  - rewrite firstn_nil. lia.
  - destruct j as [|j]; cbn [firstn recs_len]; [lia|]. specialize (IH j). lia.
Qed.

Lemma recs_len_firstn_mono rs i j : (i <= j)%nat -> (recs_len (firstn i rs) <= recs_len (firstn j rs))%nat.
Proof. intros H. rewrite <- (Nat.min_l i j H), <- firstn_firstn. apply recs_len_firstn_le. Qed.

Lemma boundary_0 rs : boundary rs 0 = 20%nat.
Proof. reflexivity. Qed.

Lemma boundary_last rs : boundary rs (length rs) = length (blob_bytes rs).
Proof. unfold boundary. rewrite firstn_all. reflexivity. Qed.

Lemma between_not_boundary rs j n :
  (boundary rs j < n)%nat -> (n < boundary rs (S j))%nat -> forall j', n <> boundary rs j'.
Proof.
  intros H1 H2 j' ->. rewrite !boundary_eq in H1, H2. destruct (Nat.le_gt_cases j' j) as [H|H].
  - pose proof (recs_len_firstn_mono rs j' j H). lia.
  - pose proof (recs_len_firstn_mono rs (S j) j' H). lia.
Qed.

Theorem scan_prefix_exact : forall K rs n v, wf_recs K rs -> (n <= length (blob_bytes rs))%nat ->
  let r := blob_open_scan (firstn n (blob_bytes rs)) K v in
  ((n < 20)%nat /\ r = RFail EBincode)
  \/ (exists j, (j <= length rs)%nat /\ n = boundary rs j /\ r = ROk (firstn j (blob_hdrs rs)))
  \/ (exists j, (j < length rs)%nat /\
        (boundary rs j < n)%nat /\ (n < boundary rs (S j))%nat /\ r = RFail EBincode).
Proof.
  intros K rs n v (HK & Hwf & Hsz) Hn r. subst r. pose proof (firstn_length_le _ Hn) as Hlb.
  rewrite blob_bytes_length in Hsz, Hn. rewrite blob_hdrs_eq. setoid_rewrite boundary_eq.
  destruct (Nat.lt_ge_cases n 20) as [H20|H20].
  { left. split; [exact H20|]. apply short_file_quarantined. rewrite Hlb. exact H20. }
  right.
  assert (Hc : blob_header_check (firstn n (blob_bytes rs)) = None).
  { rewrite blob_bytes_eq, firstn_app_ge by exact H20. exact (blob_header_check_20 blob_header_bytes _ eq_refl). }
  unfold blob_open_scan. rewrite Hc, Hlb.
  destruct (Nat.ltb_spec 20 n) as [Hgt|Hle].
  2:{ left. exists 0%nat. cbn [firstn recs_len]. split; [lia|]. split; [lia|reflexivity]. }
  destruct rs as [|x rs]; [cbn [recs_len] in Hn; lia|].
  inversion Hwf as [|x' rs' Hx Hrs]; subst x' rs'.
  (* the cut is inside the first 16 bytes of the first record *)
  destruct (Nat.lt_ge_cases n 36) as [H36|H36].
  { right. exists 0%nat. cbn [firstn recs_len length]. unfold rec_len.
    split; [lia|]. split; [lia|]. split; [lia|].
    rewrite scan_start_short by (rewrite Hlb; exact H36). reflexivity. }
  assert (Hss : scan_start (firstn n (blob_bytes (x :: rs))) K = None).
  { rewrite scan_start_firstn, blob_bytes_eq by (rewrite ?blob_bytes_length; lia).
    apply scan_start_laid; [reflexivity|]. apply laid_hdr_of; [exact HK|exact Hx|reflexivity]. }
  rewrite Hss, blob_bytes_eq.
  pose proof (scan_cut K v HK (x :: rs) blob_header_bytes n Hwf) as Hs.
  rewrite blob_header_length in Hs. change (N.of_nat 20) with 20 in Hs.
  exact (Hs ltac:(lia) ltac:(lia) [] (S n) ltac:(lia)).
Qed.

Theorem scan_complete : forall K rs validate, wf_recs K rs ->
  blob_open_scan (blob_bytes rs) K validate = ROk (blob_hdrs rs).
Proof.
  intros K rs v (HK & Hwf & Hsz). rewrite blob_bytes_length in Hsz. rewrite blob_bytes_eq, blob_hdrs_eq.
  apply scan_open_laid; [reflexivity|reflexivity|]. apply placed_laid; assumption.
Qed.

Corollary scan_empty : forall K validate, blob_open_scan (blob_bytes []) K validate = ROk [].
Proof. intros K v. reflexivity. Qed.

Theorem scan_prefix_cases : forall K rs n v, wf_recs K rs -> (n <= length (blob_bytes rs))%nat ->
  let r := blob_open_scan (firstn n (blob_bytes rs)) K v in
  (exists j, (j <= length rs)%nat /\ n = boundary rs j /\ r = ROk (firstn j (blob_hdrs rs)))
  \/ ((forall j, n <> boundary rs j) /\ r = RFail EBincode).
Proof.
  intros K rs n v Hwf Hn r. pose proof (scan_prefix_exact K rs n v Hwf Hn) as H. fold r in H.
  destruct H as [(C & Hr) | [(j & Hj & Hnj & Hr) | (j & Hj & Hn1 & Hn2 & Hr)]].
  - right. split; [|exact Hr]. intros j E. rewrite boundary_eq in E. lia.
  - left. exists j. auto.
  - right. split; [|exact Hr]. apply (between_not_boundary rs j); assumption.
Qed.

Theorem scan_prefix_validate : forall K rs n, wf_recs K rs -> (n <= length (blob_bytes rs))%nat ->
  let r := blob_open_scan (firstn n (blob_bytes rs)) K true in
  (exists j, (j <= length rs)%nat /\ n = boundary rs j /\ r = ROk (firstn j (blob_hdrs rs)))
  \/ ((forall j, n <> boundary rs j) /\ r = RFail EBincode).
Proof. intros K rs n. exact (scan_prefix_cases K rs n true). Qed.

Theorem scan_prefix_novalidate : forall K rs n, wf_recs K rs -> (n <= length (blob_bytes rs))%nat ->
  let r := blob_open_scan (firstn n (blob_bytes rs)) K false in
  (exists j, (j <= length rs)%nat /\ n = boundary rs j /\ r = ROk (firstn j (blob_hdrs rs)))
  \/ ((forall j, n <> boundary rs j) /\ r = RFail EBincode).
Proof. intros K rs n. exact (scan_prefix_cases K rs n false). Qed.

(* consequences for Storage::read_blobs: a truncated blob never makes initialisation fail; it is either
   served or quarantined *)
Corollary scan_prefix_disposition : forall K rs n v, wf_recs K rs -> (n <= length (blob_bytes rs))%nat ->
  dispose (blob_open_scan (firstn n (blob_bytes rs)) K v) <> DInitFails.
Proof.
  intros K rs n v Hwf Hn. pose proof (scan_prefix_cases K rs n v Hwf Hn) as H. cbv zeta in H.
  destruct H as [(j & _ & _ & Hr) | (_ & Hr)]; rewrite Hr; discriminate.
Qed.

Corollary scan_prefix_served_iff_boundary : forall K rs n v, wf_recs K rs -> (n <= length (blob_bytes rs))%nat ->
  (dispose (blob_open_scan (firstn n (blob_bytes rs)) K v) = DServed <->
   exists j, (j <= length rs)%nat /\ n = boundary rs j).
Proof.
  intros K rs n v Hwf Hn. pose proof (scan_prefix_cases K rs n v Hwf Hn) as H. cbv zeta in H.
  destruct H as [(j & Hj & Hnj & Hr) | (Hnb & Hr)].
  - rewrite Hr. split; [intros _; exists j; auto | reflexivity].
  - rewrite Hr. split; [discriminate|].
    intros (j & _ & E). exfalso. exact (Hnb j E).
Qed.

(* two records, K = 4; the file is cut inside the data of record 2 (2 of its 4 data bytes are missing) *)
Definition f6_recs : list rec := [([1;2;3;4], 1, [], [10;20;30]); ([5;6;7;8], 2, [9], [40;50;60;70])].
Definition f6_cut : bytes := firstn (length (blob_bytes f6_recs) - 2) (blob_bytes f6_recs).

Example f6_torn_record_rejected :
  blob_open_scan f6_cut 4 false = RFail EBincode /\ blob_open_scan f6_cut 4 true = RFail EBincode.
Proof. vm_compute. split; reflexivity. Qed.

(* the header of the cut record, were it indexed, does not read *)
Example f6_torn_record_unreadable :
  entry_load f6_cut (nth 1 (blob_hdrs f6_recs) (new_header [] 0 [] [])) = RFail EBincode.
Proof. vm_compute. reflexivity. Qed.

(* one record, K = 4, 8-byte meta and EMPTY data; the file is cut inside the meta. A zero-length read never fails,
   so data validation alone does not notice the cut. *)
Definition z_recs : list rec := [([1;2;3;4], 1, [1;2;3;4;5;6;7;8], [])].
Definition z_cut : bytes := firstn (length (blob_bytes z_recs) - 5) (blob_bytes z_recs).

Example empty_data_torn_meta_rejected :
  (length z_cut < length (blob_bytes z_recs))%nat /\
  blob_open_scan z_cut 4 true = RFail EBincode /\ blob_open_scan z_cut 4 false = RFail EBincode.
Proof. vm_compute. repeat split; try reflexivity. lia. Qed.

Print Assumptions scan_prefix_exact.
Print Assumptions scan_complete.
Print Assumptions scan_prefix_cases.
Print Assumptions scan_prefix_validate.
Print Assumptions scan_prefix_novalidate.
Print Assumptions scan_prefix_disposition.
Print Assumptions scan_prefix_served_iff_boundary.
Print Assumptions f6_torn_record_rejected.
Print Assumptions empty_data_torn_meta_rejected.
