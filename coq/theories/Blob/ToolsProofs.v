(* The offline tools (validate_blob, recovery_blob) on byte-prefixes of well-formed blobs, and recovery of ANY input.
   The writer of the recovery tool (BlobWriter::write_record, `rec_out`) stamps the position in the output into each
   header (commit 34bfd5d of the code): every record of a recovered file, whatever the input was, is found by the
   storage's scan and read back through its header.  A header copied unchanged keeps the offset of the place the
   record had in the input; behind a skipped record that offset is wrong and the record cannot be read through the
   regenerated index: finding F7.
   Builds on Blob/ScanProofs.v (records laid in a file, the blob layout). *)
Require Import Pearl.Base.Prelude Pearl.Base.LE Pearl.Base.LEProofs Pearl.Base.Crc Pearl.Base.CrcProofs
               Pearl.Generated.Consts Pearl.Format.Record Pearl.Format.RecordProofs Pearl.Blob.Scan
               Pearl.Blob.ScanBasics Pearl.Blob.ScanProofs.

Lemma stamp_off h o : h_off (stamp h o) = o.
Proof. unfold stamp. destruct (N.eqb_spec (h_off h) o) as [E|E]; [exact E|reflexivity]. Qed.

Lemma stamp_same h o : h_off h = o -> stamp h o = h.
Proof. intros E. unfold stamp. rewrite (proj2 (N.eqb_eq _ _) E). reflexivity. Qed.

Lemma stamp_crc h o : h_hcrc h = header_crc h -> h_hcrc (stamp h o) = header_crc (stamp h o).
Proof.
  intros H. unfold stamp. destruct (h_off h =? o); [exact H|]. cbv zeta.
  rewrite header_crc_with_hcrc. reflexivity.
Qed.

Lemma stamp_other_fields h o :
  h_magic (stamp h o) = h_magic h /\ h_key (stamp h o) = h_key h /\ h_msize (stamp h o) = h_msize h /\
  h_dsize (stamp h o) = h_dsize h /\ h_flags (stamp h o) = h_flags h /\ h_ts (stamp h o) = h_ts h /\
  h_dcrc (stamp h o) = h_dcrc h.
Proof. unfold stamp. destruct (h_off h =? o); repeat split; reflexivity. Qed.

Lemma stamp_key h o : h_key (stamp h o) = h_key h.
Proof. exact (proj1 (proj2 (stamp_other_fields h o))). Qed.

Lemma stamp_valid h o : validate_header h = None -> validate_header (stamp h o) = None.
Proof.
  intros Hv. apply validate_header_None in Hv. destruct Hv as (Hm & Hc).
  unfold validate_header. rewrite (proj1 (stamp_other_fields h o)), Hm, N.eqb_refl.
  rewrite <- (stamp_crc h o (eq_sym Hc)), N.eqb_refl. reflexivity.
Qed.

Lemma stamp_wf h o : wf_header h -> o < 2^64 -> wf_header (stamp h o).
Proof.
  intros (Hm & Hk & Hms & Hds & Hf & Ho & Ht & Hdc & Hhc) Hlt. unfold stamp.
  destruct (h_off h =? o); [repeat split; assumption|].
  unfold wf_header. cbn [h_magic h_key h_msize h_dsize h_flags h_off h_ts h_dcrc h_hcrc with_off with_hcrc].
  repeat split; try assumption. unfold header_crc. apply crc32c_lt.
Qed.

Lemma stamp_good h m d o : good_item (h, m, d) -> good_item (stamp h o, m, d).
Proof.
  intros (Hv & Hms & Hds & Hdc). destruct (stamp_other_fields h o) as (_ & _ & Fms & Fds & _ & _ & Fdc).
  split; [exact (stamp_valid h o Hv)|]. rewrite Fms, Fds, Fdc. repeat split; assumption.
Qed.

Lemma stamp_laid K h m d o : laid K (h, m, d) -> o < 2^64 -> laid K (stamp h o, m, d).
Proof.
  intros (Hg & Hwf & Hk) Ho. split; [exact (stamp_good h m d o Hg)|].
  rewrite stamp_key. split; [exact (stamp_wf h o Hwf Ho)|exact Hk].
Qed.

(* re-stamping a header the storage wrote gives the header it would have written at the new place; with it the
   records recovery copies from a cut blob are byte for byte the blob of those records (tool_recover_loop_spec) *)
Lemma stamp_hdr_of o o' x : stamp (hdr_of o x) o' = hdr_of o' x.
Proof. unfold stamp. change (h_off (hdr_of o x)) with o. destruct (N.eqb_spec o o') as [->|_]; reflexivity. Qed.

Lemma rec_out_length out h m d : length (rec_out out h m d) = (57 + length (h_key h) + length m + length d)%nat.
Proof.
  rewrite <- (stamp_key h (N.of_nat (length out))). exact (wbytes_length (stamp h (N.of_nat (length out))) m d).
Qed.

Section ToolsProofs.
Variable meta_ok : bytes -> bool.

(* the key length as BlobReader reads it from the 16 bytes in front of a header *)
Lemma tool_read_klen K pre w suf : laid K w -> exists x,
  slice (pre ++ wbytes w ++ suf) (N.of_nat (length pre)) 16 = Some x /\ le_val (firstn 8 (skipn 8 x)) = K.
Proof.
  destruct w as [[h m] d]. intros (_ & (_ & Hkl & _) & Hk). rewrite Hk in Hkl.
  exists (le64 (h_magic h) ++ le64 K). split.
  - cbn [wbytes]. unfold encode_header. rewrite Hk, <- !app_assoc, (app_assoc (le64 (h_magic h))).
    apply slice_at; [reflexivity|]. rewrite app_length, !le64_length. reflexivity.
  - rewrite <- (app_nil_r (le64 K)). apply u64_at_app; [apply le64_length|exact Hkl].
Qed.

Lemma tool_read_ok K pre w suf : laid K w -> meta_ok (wmeta w) = true ->
  tool_read meta_ok (pre ++ wbytes w ++ suf) (N.of_nat (length pre))
  = inl (whdr w, wmeta w, wdata w, N.of_nat (length (pre ++ wbytes w))).
Proof.
  intros Hw Hmeta. destruct (tool_read_klen K pre w suf Hw) as (x & S0 & Hx).
  destruct w as [[h m] d]. destruct (laid_slices K pre h m d suf Hw) as (S1 & S2 & S3).
  destruct Hw as ((Hv & Hms & Hds & Hdc) & Hwf & Hk). cbn [whdr wmeta wdata fst snd] in Hmeta |- *.
  unfold tool_read. rewrite S0, Hx, <- !(N.add_assoc _ 57 K), S1, (decode_encode_header h Hwf), Hv, S2, Hmeta. cbn [negb].
  rewrite S3, Hdc, N.eqb_refl. do 2 f_equal. rewrite app_length, wbytes_length. lia.
Qed.

(* the first n bytes of a file, where n lies in front of the end of a laid record: one of the four reads (key length,
   header, metadata, data) comes up short *)
Lemma tool_read_torn K pre w suf n : laid K w -> (n < length pre + length (wbytes w))%nat ->
  tool_read meta_ok (firstn n (pre ++ wbytes w ++ suf)) (N.of_nat (length pre)) = inr TIo.
Proof.
  intros Hw Hn. destruct (tool_read_klen K pre w suf Hw) as (x & S0 & Hx).
  destruct w as [[h m] d]. destruct (laid_slices K pre h m d suf Hw) as (S1 & S2 & _).
  destruct Hw as ((Hv & Hms & Hds & _) & Hwf & Hk).
  rewrite wbytes_length in Hn. set (b := pre ++ wbytes (h, m, d) ++ suf) in *.
  assert (Hlb : (length (firstn n b) <= n)%nat) by (rewrite firstn_length; lia).
  unfold tool_read.
  destruct (Nat.lt_ge_cases n (length pre + 16)) as [H0|H0]; [rewrite slice_short by lia; reflexivity|].
  rewrite slice_firstn, S0, Hx, <- !(N.add_assoc _ 57 K) by lia.
  destruct (Nat.lt_ge_cases n (length pre + (57 + length (h_key h)))) as [H1|H1]; [rewrite slice_short by lia; reflexivity|].
  rewrite slice_firstn, S1, (decode_encode_header h Hwf), Hv by lia.
  destruct (Nat.lt_ge_cases n (length pre + (57 + length (h_key h)) + length m)) as [H2|H2]; [rewrite slice_short by lia; reflexivity|].
  rewrite slice_firstn, S2 by lia. destruct (meta_ok m); cbn [negb]; rewrite slice_short by lia; reflexivity.
Qed.

Definition metas_ok (rs : list rec) : Prop := Forall (fun x => meta_ok (rmeta x) = true) rs.

(* number of records that lie completely inside the first n bytes (records start at off) *)
Fixpoint ncomplete (off : nat) (rs : list rec) (n : nat) : nat :=
  match rs with
  | [] => 0%nat
  | x :: r => if (off + rec_len x <=? n)%nat then S (ncomplete (off + rec_len x) r n) else 0%nat
  end.

Lemma ncomplete_spec rs : forall off n, (off <= n)%nat ->
  let j := ncomplete off rs n in
  (j <= length rs)%nat /\ (off + recs_len (firstn j rs) <= n)%nat /\
  ((j < length rs)%nat -> (n < off + recs_len (firstn (S j) rs))%nat).
Proof.
  induction rs as [|x r IH]; intros off n Hoff; cbn [ncomplete length].
  - cbn [firstn recs_len]. split; [lia|]. split; [lia|]. intros C. lia.
  - destruct (Nat.leb_spec (off + rec_len x) n) as [H|H].
    + specialize (IH (off + rec_len x)%nat n H). cbv zeta in IH. destruct IH as (I1 & I2 & I3).
      cbn [firstn recs_len] in *. split; [lia|]. split; [lia|]. intros Hlt. specialize (I3 ltac:(lia)). lia.
    + cbn [firstn recs_len]. split; [lia|]. split; [lia|]. intros _. lia.
Qed.

(* the validator on [b], the first n bytes of the file that holds the records rs behind pre *)
Definition validate_cut (pre : bytes) (rs : list rec) (n : nat) (b : bytes) : Prop :=
  metas_ok rs -> forall fuel, (n < length pre + fuel)%nat ->
  (tool_validate_loop meta_ok fuel b (N.of_nat (length pre)) = true
   <-> exists j, (j <= length rs)%nat /\ n = (length pre + recs_len (firstn j rs))%nat).

Lemma tool_validate_loop_spec K (HK : K < 2^64) : forall rs pre n,
  Forall (wf_rec K) rs -> N.of_nat (length pre + recs_len rs) < 2^64 -> (length pre <= n <= length pre + recs_len rs)%nat ->
  validate_cut pre rs n (firstn n (pre ++ flat_map wbytes (placed (length pre) rs))).
Proof.
  apply (cut_ind K validate_cut HK); cbv beta delta [validate_cut].
  - intros pre rs _ fuel Hf. destruct fuel as [|f]; [lia|]. cbn [tool_validate_loop]. rewrite N.ltb_irrefl.
    split; [intros _|reflexivity]. exists 0%nat. cbn [firstn recs_len]. split; lia.
  - intros pre x rs suf n w Hw Hlw Hn _ fuel Hf.
    destruct fuel as [|f]; [lia|]. cbn [tool_validate_loop].
    rewrite (proj2 (N.ltb_lt _ _)) by (rewrite firstn_length, !app_length; lia).
    rewrite (tool_read_torn K) by (exact Hw || lia).
    split; [discriminate|]. intros ([|j] & Hj & E); cbn [firstn recs_len] in E; lia.
  - intros pre x rs suf n w Hw Hlw Hn IH Hmo fuel Hf. inversion Hmo as [|x' rs' Hmx Hmrs]; subst x' rs'.
    destruct fuel as [|f]; [lia|]. cbn [tool_validate_loop].
    rewrite (proj2 (N.ltb_lt _ _)) by (rewrite !app_length; lia).
    rewrite (tool_read_ok K) by assumption. cbv iota.
    rewrite app_assoc, (IH Hmrs f), app_length, Hlw by (rewrite app_length; lia). split.
    + intros (j & Hj & E). exists (S j). cbn [firstn recs_len length]. split; lia.
    + intros ([|j] & Hj & E); cbn [firstn recs_len length] in *; [lia|]. exists j. split; lia.
Qed.

(* recovery: the complete records are written behind [out] as the storage would have written them there *)
Definition recover_cut (skip : bool) (pre : bytes) (rs : list rec) (n : nat) (b : bytes) : Prop :=
  metas_ok rs -> forall out fuel, (n < length pre + fuel)%nat ->
  tool_recover_loop meta_ok fuel b skip (N.of_nat (length pre)) out
  = out ++ flat_map wbytes (placed (length out) (firstn (ncomplete (length pre) rs n) rs)).

Lemma tool_recover_loop_spec K (HK : K < 2^64) skip : forall rs pre n,
  Forall (wf_rec K) rs -> N.of_nat (length pre + recs_len rs) < 2^64 -> (length pre <= n <= length pre + recs_len rs)%nat ->
  recover_cut skip pre rs n (firstn n (pre ++ flat_map wbytes (placed (length pre) rs))).
Proof.
  apply (cut_ind K (recover_cut skip) HK); cbv beta delta [recover_cut].
  - intros pre rs _ out fuel Hf. destruct fuel as [|f]; [lia|]. cbn [tool_recover_loop]. rewrite N.ltb_irrefl.
    assert (E : ncomplete (length pre) rs (length pre) = 0%nat).
    { destruct rs as [|x rs]; [reflexivity|]. cbn [ncomplete].
      destruct (Nat.leb_spec (length pre + rec_len x) (length pre)) as [C|_]; [unfold rec_len in C; lia|reflexivity]. }
    rewrite E. cbn [firstn placed flat_map]. rewrite app_nil_r. reflexivity.
  - intros pre x rs suf n w Hw Hlw Hn _ out fuel Hf.
    destruct fuel as [|f]; [lia|]. cbn [tool_recover_loop ncomplete].
    rewrite (proj2 (N.ltb_lt _ _)) by (rewrite firstn_length, !app_length; lia).
    destruct (Nat.leb_spec (length pre + rec_len x) n) as [C|_]; [lia|].
    rewrite (tool_read_torn K) by (exact Hw || lia). cbn [skip_pos firstn placed flat_map]. rewrite app_nil_r.
    destruct skip; reflexivity.
  - intros pre x rs suf n w Hw Hlw Hn IH Hmo out fuel Hf. inversion Hmo as [|x' rs' Hmx Hmrs]; subst x' rs'.
    destruct fuel as [|f]; [lia|]. cbn [tool_recover_loop ncomplete].
    rewrite (proj2 (N.ltb_lt _ _)) by (rewrite !app_length; lia).
    destruct (Nat.leb_spec (length pre + rec_len x) n) as [_|C]; [|lia].
    rewrite (tool_read_ok K) by assumption. cbv iota.
    rewrite app_assoc, (IH Hmrs _ f), !app_length, Hlw by (rewrite app_length; lia).
    subst w. cbn [whdr wmeta wdata fst snd]. unfold rec_out. rewrite stamp_hdr_of.
    change (encode_header ?h ++ rmeta x ++ rdata x) with (wbytes (h, rmeta x, rdata x)).
    cbn [firstn placed flat_map]. rewrite wbytes_length, <- app_assoc. reflexivity.
Qed.

Lemma u64_at_blob_bytes_0 rs n : (20 <= n)%nat -> u64_at (firstn n (blob_bytes rs)) 0 = BLOB_MAGIC_BYTE.
Proof.
  intros H. rewrite u64_at_firstn, blob_bytes_eq, u64_at_prefix by (rewrite ?blob_header_length; lia). reflexivity.
Qed.

Theorem tool_validate_prefix : forall K rs n, wf_recs K rs -> metas_ok rs -> (n <= length (blob_bytes rs))%nat ->
  (tool_validate_blob meta_ok (firstn n (blob_bytes rs)) = true
   <-> exists j, (j <= length rs)%nat /\ n = boundary rs j).
Proof.
  intros K rs n (HK & Hwf & Hsz) Hmo Hn. pose proof (firstn_length_le _ Hn) as Hlb. rewrite blob_bytes_length in Hsz, Hn.
  unfold tool_validate_blob. rewrite Hlb. setoid_rewrite boundary_eq.
  destruct (Nat.ltb_spec n 20) as [H20|H20].
  { split; [discriminate|]. intros (j & _ & E). lia. }
  rewrite u64_at_blob_bytes_0, N.eqb_refl, blob_bytes_eq by exact H20. cbn [negb].
  pose proof (tool_validate_loop_spec K HK rs blob_header_bytes n Hwf) as Hs.
  unfold validate_cut in Hs. rewrite blob_header_length in Hs. change (N.of_nat 20) with 20 in Hs.
  exact (Hs ltac:(lia) ltac:(lia) Hmo (S n) ltac:(lia)).
Qed.

Corollary tool_validate_complete : forall K rs, wf_recs K rs -> metas_ok rs ->
  tool_validate_blob meta_ok (blob_bytes rs) = true.
Proof.
  intros K rs Hwf Hmo. rewrite <- (firstn_all (blob_bytes rs)).
  apply (tool_validate_prefix K rs _ Hwf Hmo (Nat.le_refl _)).
  exists (length rs). split; [lia|]. symmetry. apply boundary_last.
Qed.

Theorem tool_recover_prefix : forall K rs n skip, wf_recs K rs -> metas_ok rs ->
  (20 <= n)%nat -> (n <= length (blob_bytes rs))%nat ->
  let j := ncomplete 20 rs n in
  tool_recover meta_ok (firstn n (blob_bytes rs)) skip = Some (blob_bytes (firstn j rs)) /\
  (j <= length rs)%nat /\ (boundary rs j <= n)%nat /\ ((j < length rs)%nat -> (n < boundary rs (S j))%nat).
Proof.
  intros K rs n skip (HK & Hwf & Hsz) Hmo H20 Hn j. pose proof (firstn_length_le _ Hn) as Hlb.
  rewrite blob_bytes_length in Hsz, Hn.
  split.
  - unfold tool_recover. rewrite Hlb.
    destruct (Nat.ltb_spec n 20) as [C|_]; [lia|].
    rewrite u64_at_blob_bytes_0, N.eqb_refl by exact H20. cbn [negb].
    rewrite firstn_firstn, Nat.min_l, (blob_bytes_eq rs) by exact H20.
    change (firstn 20 (blob_header_bytes ++ ?l)) with blob_header_bytes.
    pose proof (tool_recover_loop_spec K HK skip rs blob_header_bytes n Hwf) as Hs.
    unfold recover_cut in Hs. rewrite blob_header_length in Hs. change (N.of_nat 20) with 20 in Hs. fold j in Hs.
    rewrite (Hs ltac:(lia) ltac:(lia) Hmo blob_header_bytes (S n)), (blob_bytes_eq (firstn j rs)) by lia. reflexivity.
  - pose proof (ncomplete_spec rs 20 n H20) as Hc. cbv zeta in Hc. fold j in Hc.
    rewrite !boundary_eq. exact Hc.
Qed.

End ToolsProofs.

Section RecoverGeneral.
Variable meta_ok : bytes -> bool.

(* a record the tool writes: the header as it was read, the metadata and the data (the triple [wrec] of ScanProofs) *)
Definition item := (header * bytes * bytes)%type.

(* the output file after writing the items one after another behind [out] *)
Fixpoint out_of (items : list item) (out : bytes) : bytes :=
  match items with
  | [] => out
  | (h, m, d) :: r => out_of r (out ++ rec_out out h m d)
  end.

Lemma tool_read_inv b pos h m d p' : tool_read meta_ok b pos = inl (h, m, d, p') ->
  good_item (h, m, d) /\ meta_ok m = true /\ (wf_bytes b -> wf_header h).
Proof.
  unfold tool_read.
  destruct (slice b pos 16) as [pre|]; [|discriminate].
  destruct (slice b pos (57 + le_val (firstn 8 (skipn 8 pre)))) as [hb|] eqn:Sh; [|discriminate].
  destruct (decode_header hb) as [h0|] eqn:Dh; [|discriminate].
  destruct (validate_header h0) as [e|] eqn:Hv; [discriminate|].
  destruct (slice b (pos + 57 + le_val (firstn 8 (skipn 8 pre))) (h_msize h0)) as [m0|] eqn:Sm; [|discriminate].
  destruct (slice b (pos + 57 + le_val (firstn 8 (skipn 8 pre)) + h_msize h0) (h_dsize h0)) as [d0|] eqn:Sd;
    [|destruct (meta_ok m0); discriminate].
  destruct (meta_ok m0) eqn:Hmo; cbn [negb]; [|discriminate].
  destruct (N.eqb_spec (crc32c d0) (h_dcrc h0)) as [Hc|Hc]; [|discriminate].
  intros [= -> -> -> _]. split; [|split; [exact Hmo|intros Hb; exact (decode_header_wf hb h (slice_wf _ _ _ _ Hb Sh) Dh)]].
  split; [exact Hv|]. split; [symmetry; exact (slice_length _ _ _ _ Sm)|].
  split; [symmetry; exact (slice_length _ _ _ _ Sd)|]. symmetry; exact Hc.
Qed.

Definition was_read (b : bytes) (it : item) : Prop :=
  exists pos p', tool_read meta_ok b pos = inl (it, p').

Lemma was_read_good b it : was_read b it -> good_item it.
Proof. destruct it as [[h m] d]. intros (pos & p' & R). exact (proj1 (tool_read_inv b pos h m d p' R)). Qed.

(* the loop only ever appends records it has read successfully, each through [rec_out] *)
Lemma tool_recover_loop_items : forall fuel b skip pos out,
  exists items, tool_recover_loop meta_ok fuel b skip pos out = out_of items out /\ Forall (was_read b) items.
Proof.
  induction fuel as [|f IH]; intros b skip pos out.
  { exists []. split; [reflexivity|constructor]. }
  assert (Hstop : exists items, out = out_of items out /\ Forall (was_read b) items).
  { exists []. split; [reflexivity|constructor]. }
  assert (Hgo : forall p h m d p', tool_read meta_ok b p = inl (h, m, d, p') ->
            exists items, tool_recover_loop meta_ok f b skip p' (out ++ rec_out out h m d) = out_of items out /\
                          Forall (was_read b) items).
  { intros p h m d p' R. destruct (IH b skip p' (out ++ rec_out out h m d)) as (its & E & F).
    exists ((h, m, d) :: its). split; [exact E|]. constructor; [exists p, p'; exact R|exact F]. }
  cbn [tool_recover_loop]. destruct (pos <? N.of_nat (length b)); [|exact Hstop].
  destruct (tool_read meta_ok b pos) as [[[[h m] d] p']|e] eqn:R; [exact (Hgo _ _ _ _ _ R)|].
  destruct skip; [|exact Hstop]. destruct (skip_pos b pos e) as [p1|]; [|exact Hstop].
  destruct (tool_read meta_ok b p1) as [[[[h m] d] p']|e1] eqn:R1; [exact (Hgo _ _ _ _ _ R1)|exact Hstop].
Qed.

Lemma out_of_app its1 : forall its2 out, out_of (its1 ++ its2) out = out_of its2 (out_of its1 out).
Proof.
  induction its1 as [|[[h m] d] r IH]; intros its2 out; cbn [app out_of]; [reflexivity|apply IH].
Qed.

Definition item_len (it : item) : nat :=
  let '(h, m, d) := it in (57 + length (h_key h) + length m + length d)%nat.

(* explicit layout of the records written behind the first [pos] bytes: each header is stamped with the position
   of its record; [out_hdrs] are the headers they carry *)
Fixpoint stamped (pos : nat) (its : list item) : list item :=
  match its with
  | [] => []
  | (h, m, d) :: r => (stamp h (N.of_nat pos), m, d) :: stamped (pos + item_len (h, m, d)) r
  end.
Fixpoint out_hdrs (pos : nat) (its : list item) : list header :=
  match its with
  | [] => []
  | (h, m, d) :: r => stamp h (N.of_nat pos) :: out_hdrs (pos + item_len (h, m, d)) r
  end.

Lemma out_of_eq its : forall out, out_of its out = out ++ flat_map wbytes (stamped (length out) its).
Proof.
  induction its as [|[[h m] d] r IH]; intros out; cbn [out_of stamped flat_map].
  - rewrite app_nil_r. reflexivity.
  - rewrite IH, app_length, rec_out_length, <- app_assoc. reflexivity.
Qed.

Lemma out_hdrs_eq its : forall pos, out_hdrs pos its = map whdr (stamped pos its).
Proof.
  induction its as [|[[h m] d] r IH]; intros pos; cbn [out_hdrs stamped map]; [reflexivity|]. rewrite IH. reflexivity.
Qed.

Lemma out_hdrs_length its : forall pos, length (out_hdrs pos its) = length its.
Proof. induction its as [|[[h m] d] r IH]; intros pos; cbn [out_hdrs length]; [reflexivity|]. rewrite IH. reflexivity. Qed.

Lemma stamped_laid K its : forall pos, Forall (laid K) its ->
  N.of_nat (pos + length (flat_map wbytes (stamped pos its))) < 2^64 -> Forall (laid K) (stamped pos its).
Proof.
  induction its as [|[[h m] d] r IH]; intros pos Hits Hsz; cbn [stamped flat_map] in *; [constructor|].
  inversion Hits as [|it r' Hit Hr]; subst it r'. rewrite app_length, wbytes_length, stamp_key in Hsz. constructor.
  - apply stamp_laid; [exact Hit|lia].
  - apply IH; [exact Hr|]. cbn [item_len] in *. lia.
Qed.

(* every record written starts at the length of the output so far, its header carries that position and
   a right checksum, and Entry::load through that header returns the metadata and data that were read *)
Theorem out_of_record_readable its1 h m d its2 out : good_item (h, m, d) ->
  let o1 := out_of its1 out in
  let h' := stamp h (N.of_nat (length o1)) in
  (exists suf, out_of (its1 ++ (h, m, d) :: its2) out = o1 ++ encode_header h' ++ m ++ d ++ suf) /\
  h_off h' = N.of_nat (length o1) /\ validate_header h' = None /\
  entry_load (out_of (its1 ++ (h, m, d) :: its2) out) h' = ROk (m, d).
Proof.
  intros Hg o1 h'. destruct (stamp_good h m d (N.of_nat (length o1)) Hg) as (Hv & Hms & Hds & Hdc). fold h' in Hv, Hms, Hds, Hdc.
  assert (E : out_of (its1 ++ (h, m, d) :: its2) out
              = o1 ++ encode_header h' ++ m ++ d ++ flat_map wbytes (stamped (length (o1 ++ rec_out o1 h m d)) its2)).
  { rewrite out_of_app. fold o1. cbn [out_of]. rewrite out_of_eq. unfold rec_out. fold h'. rewrite <- !app_assoc. reflexivity. }
  split; [eexists; exact E|]. split; [apply stamp_off|]. split; [exact Hv|].
  rewrite E. destruct (proj1 (validate_header_None h') Hv) as (Hmg & Hhc).
  apply entry_load_ok; [apply stamp_off|assumption..].
Qed.

Theorem tool_recover_loop_offsets : forall fuel b skip pos out,
  exists items, tool_recover_loop meta_ok fuel b skip pos out = out_of items out /\
    Forall (was_read b) items /\
    forall its1 h m d its2, items = its1 ++ (h, m, d) :: its2 ->
      let o1 := out_of its1 out in
      let h' := stamp h (N.of_nat (length o1)) in
      (exists suf, out_of items out = o1 ++ encode_header h' ++ m ++ d ++ suf) /\
      h_off h' = N.of_nat (length o1) /\ validate_header h' = None /\
      entry_load (out_of items out) h' = ROk (m, d).
Proof.
  intros fuel b skip pos out. destruct (tool_recover_loop_items fuel b skip pos out) as (items & E & F).
  exists items. split; [exact E|]. split; [exact F|].
  intros its1 h m d its2 ->. apply out_of_record_readable, (was_read_good b).
  rewrite Forall_forall in F. apply F, in_or_app. right. left. reflexivity.
Qed.

Theorem out_of_scan K v its hdr :
  length hdr = 20%nat -> blob_header_check hdr = None -> Forall (laid K) its ->
  N.of_nat (length (out_of its hdr)) < 2^64 ->
  blob_open_scan (out_of its hdr) K v = ROk (out_hdrs 20 its).
Proof.
  intros Hl Hc Hits Hsz. rewrite out_of_eq in *. rewrite app_length in Hsz. rewrite Hl in *. rewrite out_hdrs_eq.
  apply scan_open_laid; [exact Hl|exact Hc|]. apply stamped_laid; assumption.
Qed.

Lemma out_of_all_readable (its2 : list item) : forall its1 out, Forall good_item its2 ->
  Forall2 (fun it h' => entry_load (out_of (its1 ++ its2) out) h' = ROk (snd (fst it), snd it))
          its2 (out_hdrs (length (out_of its1 out)) its2).
Proof.
  induction its2 as [|[[h m] d] r IH]; intros its1 out Hg; cbn [out_hdrs]; [constructor|].
  inversion Hg as [|it r' Hit Hr]; subst it r'. constructor.
  - cbn [fst snd]. apply (out_of_record_readable its1 h m d r out Hit).
  - specialize (IH (its1 ++ [(h, m, d)]) out Hr).
    rewrite (out_of_app its1 [(h, m, d)] out) in IH. cbn [out_of] in IH.
    rewrite app_length, rec_out_length, <- app_assoc in IH. exact IH.
Qed.

(* whatever the input file holds (damaged or not, with or without skipping), the file recovery writes is
   opened by the storage's scan, which returns one header per written record, each carrying its position in
   the NEW file, and Entry::load through each of them returns the metadata and data the tool had read.
   Premises: the input is a file of bytes with the blob header the storage expects, every record the tool can
   read has the key length K of the storage, and the output is shorter than 2^64 bytes. *)
Theorem tool_recover_served : forall K b skip out v,
  wf_bytes b -> blob_header_check b = None ->
  (forall pos h m d p', tool_read meta_ok b pos = inl (h, m, d, p') -> N.of_nat (length (h_key h)) = K) ->
  tool_recover meta_ok b skip = Some out -> N.of_nat (length out) < 2^64 ->
  exists items,
    Forall (was_read b) items /\ out = out_of items (firstn 20 b) /\
    blob_open_scan out K v = ROk (out_hdrs 20 items) /\
    Forall2 (fun it h' => entry_load out h' = ROk (snd (fst it), snd it)) items (out_hdrs 20 items).
Proof.
  intros K b skip out v Hb Hc HK Hrec Hsz.
  pose proof (blob_header_check_length b Hc) as H20.
  assert (Hl : length (firstn 20 b) = 20%nat) by (rewrite firstn_length; lia).
  assert (Hc' : blob_header_check (firstn 20 b) = None).
  { rewrite <- (blob_header_check_20 (firstn 20 b) (skipn 20 b) Hl), firstn_skipn. exact Hc. }
  unfold tool_recover in Hrec.
  destruct (length b <? 20)%nat; [discriminate Hrec|].
  destruct (negb (u64_at b 0 =? BLOB_MAGIC_BYTE)); [discriminate Hrec|].
  destruct (tool_recover_loop_items (S (length b)) b skip 20 (firstn 20 b)) as (items & E & F).
  rewrite E in Hrec. injection Hrec as <-. exists items.
  assert (Hgood : Forall good_item items) by (eapply Forall_impl; [apply was_read_good|exact F]).
  assert (Hscan : Forall (laid K) items).
  { rewrite Forall_forall in *. intros [[h m] d] Hin. destruct (F _ Hin) as (p & p' & R).
    split; [exact (Hgood _ Hin)|]. split; [exact (proj2 (proj2 (tool_read_inv b p h m d p' R)) Hb)|exact (HK p h m d p' R)]. }
  split; [exact F|]. split; [reflexivity|]. split.
  - apply out_of_scan; assumption.
  - pose proof (out_of_all_readable items [] (firstn 20 b) Hgood) as H2.
    cbn [app out_of] in H2. rewrite Hl in H2. exact H2.
Qed.
End RecoverGeneral.

(* computed: three records, the second one damaged; with skip_wrong the record behind the skipped one is written
   with its NEW blob_offset *)
Definition all_ok (_ : bytes) : bool := true.
Definition f7_r1 : rec := ([1;2;3;4], 1, [], [10;20;30]).
Definition f7_r2 : rec := ([5;6;7;8], 2, [], [40;50;60]).
Definition f7_r3 : rec := ([9;10;11;12], 3, [], [70;80;90]).
Definition f7_recs : list rec := [f7_r1; f7_r2; f7_r3].
(* the last data byte of record 2 has one bit flipped *)
Definition f7_bad : bytes := updN (blob_bytes f7_recs) (boundary f7_recs 2 - 1) (fun b => N.lxor b 1).
Definition f7_h1 : header := nth 0 (blob_hdrs f7_recs) (new_header [] 0 [] []).
Definition f7_h3 : header := nth 2 (blob_hdrs f7_recs) (new_header [] 0 [] []).   (* record 3 in the damaged blob *)
(* what the tool writes: exactly the blob the storage would have written for records 1 and 3 alone *)
Definition f7_out : bytes := blob_bytes [f7_r1; f7_r3].
Definition f7_h3' : header := nth 1 (blob_hdrs [f7_r1; f7_r3]) (new_header [] 0 [] []).

(* without skip_wrong the tool stops at the bad record: only record 1 survives *)
Example f7_no_skip : tool_recover all_ok f7_bad false = Some (blob_bytes [f7_r1]).
Proof. vm_compute. reflexivity. Qed.

(* with skip_wrong: in the output record 3 sits at offset 84 (= boundary 1) and its header says 84 (in the damaged
   blob it sits at 148 = boundary 2 and says so), with a refreshed header checksum; the output passes the validator and
   the scan with and without data validation, and every header the scan hands to the index reads back the original bytes *)
Example f7_recover_stamps_new_offset :
  tool_recover all_ok f7_bad true = Some f7_out /\
  length f7_out = 148%nat /\
  slice f7_out 84 61 = Some (encode_header f7_h3') /\         (* the header of record 3 is at 84 *)
  h_off f7_h3 = 148 /\ f7_h3' = stamp f7_h3 84 /\ h_off f7_h3' = 84 /\   (* and says 84 *)
  validate_header f7_h3' = None /\
  tool_validate_blob all_ok f7_out = true /\
  blob_open_scan f7_out 4 true = ROk [f7_h1; f7_h3'] /\
  blob_open_scan f7_out 4 false = ROk [f7_h1; f7_h3'] /\
  entry_load f7_out f7_h1 = ROk ([], [10;20;30]) /\
  entry_load f7_out f7_h3' = ROk ([], [70;80;90]) /\
  entry_load f7_out f7_h3 = RFail EBincode.     (* the header as it stood in the damaged blob does not read the output *)
Proof. vm_compute. repeat split; reflexivity. Qed.

Print Assumptions tool_validate_prefix.
Print Assumptions tool_validate_complete.
Print Assumptions tool_recover_prefix.
Print Assumptions stamp_off.
Print Assumptions stamp_same.
Print Assumptions stamp_crc.
Print Assumptions stamp_other_fields.
Print Assumptions stamp_valid.
Print Assumptions stamp_hdr_of.
Print Assumptions out_of_record_readable.
Print Assumptions tool_recover_loop_offsets.
Print Assumptions out_of_scan.
Print Assumptions tool_recover_served.
Print Assumptions f7_no_skip.
Print Assumptions f7_recover_stamps_new_offset.
