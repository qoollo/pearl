(* Small direct facts about opening a blob byte-wise: what the field readers and the two header checks see of a
   file. *)
Require Import Pearl.Base.Prelude Pearl.Base.LE Pearl.Base.LEProofs Pearl.Generated.Consts Pearl.Format.Record
               Pearl.Blob.Scan.

Lemma window_prefix {A} (a l : list A) o k : (o + k <= length a)%nat ->
  firstn k (skipn o (a ++ l)) = firstn k (skipn o a).
Proof. intros H. rewrite skipn_app, firstn_app_le by (rewrite skipn_length; lia). reflexivity. Qed.

Lemma u64_at_prefix a l o : (o + 8 <= length a)%nat -> u64_at (a ++ l) o = u64_at a o.
Proof. intros H. unfold u64_at. rewrite window_prefix by exact H. reflexivity. Qed.

Lemma u32_at_prefix a l o : (o + 4 <= length a)%nat -> u32_at (a ++ l) o = u32_at a o.
Proof. intros H. unfold u32_at. rewrite window_prefix by exact H. reflexivity. Qed.

Lemma u64_at_firstn b n o : (o + 8 <= n)%nat -> u64_at (firstn n b) o = u64_at b o.
Proof. intros H. unfold u64_at. rewrite window_firstn by exact H. reflexivity. Qed.

Lemma u64_at_app a x c o : length a = o -> x < 2^64 -> u64_at (a ++ le64 x ++ c) o = x.
Proof. intros Ho Hx. unfold u64_at. rewrite (field_at a (le64 x) c o 8 Ho (le64_length x)). apply le64_val, Hx. Qed.

Lemma blob_header_check_short b : (length b < 20)%nat -> blob_header_check b = Some EBincode.
Proof. intros H. unfold blob_header_check. destruct (Nat.ltb_spec (length b) 20) as [_|C]; [reflexivity|lia]. Qed.

Lemma blob_header_check_length b : blob_header_check b = None -> (20 <= length b)%nat.
Proof. unfold blob_header_check. destruct (Nat.ltb_spec (length b) 20) as [_|H]; [discriminate|intros _; exact H]. Qed.

Lemma blob_header_check_20 hdr rest : length hdr = 20%nat -> blob_header_check (hdr ++ rest) = blob_header_check hdr.
Proof.
  intros H. unfold blob_header_check. rewrite u64_at_prefix, u32_at_prefix, app_length by lia.
  destruct (Nat.ltb_spec (length hdr + length rest) 20) as [C|_]; [lia|].
  destruct (Nat.ltb_spec (length hdr) 20) as [C|_]; [lia|reflexivity].
Qed.

Lemma scan_start_short b K : (length b < 36)%nat -> scan_start b K = Some EBincode.
Proof. intros H. unfold scan_start. destruct (Nat.ltb_spec (length b) 36) as [_|C]; [reflexivity|lia]. Qed.

Lemma scan_start_firstn b n K : (36 <= n)%nat -> (n <= length b)%nat -> scan_start (firstn n b) K = scan_start b K.
Proof.
  intros Hn Hb. unfold scan_start. rewrite !u64_at_firstn, firstn_length by lia.
  destruct (Nat.ltb_spec (Nat.min n (length b)) 36) as [C|_]; [lia|].
  destruct (Nat.ltb_spec (length b) 36) as [C|_]; [lia|reflexivity].
Qed.

Lemma version_mismatch_rejected :
  forall (b : bytes) (K : N) (v : bool),
    (20 <= length b)%nat -> u64_at b 0 = BLOB_MAGIC_BYTE -> u32_at b 8 <> BLOB_VERSION ->
    blob_open_scan b K v = RFail EBlobVersion.
Proof.
  intros b K v Hl Hm Hv. unfold blob_open_scan, blob_header_check.
  destruct (Nat.ltb_spec (length b) 20) as [H|_]; [lia|].
  rewrite Hm, N.eqb_refl. cbn [negb].
  destruct (N.eqb_spec (u32_at b 8) BLOB_VERSION) as [E|_]; [contradiction|reflexivity].
Qed.

Lemma key_size_mismatch_rejected :
  forall (b : bytes) (K : N) (v : bool),
    (36 <= length b)%nat -> blob_header_check b = None -> u64_at b 20 = RECORD_MAGIC_BYTE -> u64_at b 28 <> K ->
    blob_open_scan b K v = RFail EKeySize.
Proof.
  intros b K v Hl Hh Hm Hk. unfold blob_open_scan. rewrite Hh.
  destruct (Nat.ltb_spec 20 (length b)) as [_|H]; [|lia].
  unfold scan_start. destruct (Nat.ltb_spec (length b) 36) as [H|_]; [lia|].
  rewrite Hm, N.eqb_refl. cbn [negb].
  destruct (N.eqb_spec (u64_at b 28) K) as [E|_]; [contradiction|reflexivity].
Qed.

Lemma only_version_fails_init : forall r : res (list header), dispose r = DInitFails <-> r = RFail EBlobVersion.
Proof.
  intros r. destruct r as [hs|e]; cbn [dispose]; [split; discriminate|].
  destruct e; cbn [dispose]; split; intros H; try discriminate; try reflexivity.
Qed.

Lemma short_file_quarantined :
  forall (b : bytes) (K : N) (validate : bool), (length b < 20)%nat -> blob_open_scan b K validate = RFail EBincode.
Proof.
  intros b K v H. unfold blob_open_scan. rewrite blob_header_check_short by exact H. reflexivity.
Qed.
