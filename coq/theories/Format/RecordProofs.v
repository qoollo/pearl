(* The byte-level record format (Format/Record.v). An encoded header is the concatenation of its fields, the key
   being the only one of variable length. Writing patches offset and header checksum into that concatenation, so
   what reaches the file is the encoding of the patched header followed by metadata and data; decoding reads each
   field back at the offset the fields before it add up to; and `entry_load` of a record that lies where its header
   says comes down to the two validations. *)
Require Import Pearl.Base.Prelude Pearl.Base.LE Pearl.Base.LEProofs Pearl.Base.Crc
               Pearl.Generated.Consts Pearl.Format.Record.

Lemma patch_0 buf v : patch buf 0 v = v ++ skipn (length v) buf.
Proof. destruct buf; reflexivity. Qed.

Lemma patch_app a v0 v c (pos : nat) :
  length a = pos -> length v0 = length v -> patch (a ++ v0 ++ c) pos v = a ++ v ++ c.
Proof.
  intros <- Hv. induction a as [|x a IH]; cbn [length app].
  - rewrite patch_0, <- Hv, skipn_app_exact. reflexivity.
  - cbn [patch]. f_equal. exact IH.
Qed.

(* the two places `finalize` patches, and what lies before and between them *)
Definition front (h : header) : bytes :=
  le64 (h_magic h) ++ le64 (N.of_nat (length (h_key h))) ++ h_key h ++ le64 (h_msize h) ++ le64 (h_dsize h)
  ++ [h_flags h mod 256].

Definition mid (h : header) : bytes := le64 (h_ts h) ++ le32 (h_dcrc h).

Lemma encode_header_parts h :
  encode_header h = front h ++ le64 (h_off h) ++ mid h ++ le32 (h_hcrc h).
Proof. unfold encode_header, front, mid. rewrite <- !app_assoc. reflexivity. Qed.

Lemma front_length h : length (front h) = (33 + length (h_key h))%nat.
Proof. unfold front. rewrite !app_length, !le64_length. cbn [length]. lia. Qed.

Lemma mid_length h : length (mid h) = 12%nat.
Proof. unfold mid. rewrite app_length, le64_length, le32_length. reflexivity. Qed.

Lemma encode_header_length h : length (encode_header h) = (57 + length (h_key h))%nat.
Proof.
  rewrite encode_header_parts, !app_length, front_length, mid_length, le64_length, le32_length. lia.
Qed.

Lemma header_crc_with_hcrc h c : header_crc (with_hcrc h c) = header_crc h.
Proof. reflexivity. Qed.

Lemma finalize_gen f o0 m c0 rest off (hlen : nat) :
  hlen = (length f + 24)%nat -> length o0 = 8%nat -> length m = 12%nat -> length c0 = 4%nat ->
  let a := f ++ le64 off ++ m in
  finalize (f ++ o0 ++ m ++ c0 ++ rest) hlen off = (a ++ le32 (crc32c (a ++ le32 0)) ++ rest, crc32c (a ++ le32 0)).
Proof.
  intros -> Ho Hm Hc a. unfold finalize. cbv zeta.
  replace (length f + 24 - 24)%nat with (length f) by lia.
  rewrite (patch_app f o0 (le64 off) (m ++ c0 ++ rest) (length f) eq_refl)
    by (rewrite Ho, le64_length; reflexivity).
  replace (f ++ le64 off ++ m ++ c0 ++ rest) with (a ++ c0 ++ rest) by (subst a; rewrite <- !app_assoc; reflexivity).
  assert (Ha : length a = (length f + 24 - 4)%nat).
  { subst a. rewrite !app_length, le64_length, Hm. lia. }
  rewrite (patch_app a c0 (le32 0) rest _ Ha) by (rewrite Hc, le32_length; reflexivity).
  rewrite firstn_app_ge, firstn_app_len by (rewrite ?Ha, ?le32_length; lia).
  rewrite (patch_app a (le32 0) (le32 (crc32c (a ++ le32 0))) rest _ Ha) by (rewrite !le32_length; reflexivity).
  reflexivity.
Qed.

Lemma finalize_encode h rest off :
  finalize (encode_header h ++ rest) (length (encode_header h)) off =
  (encode_header (with_hcrc (with_off h off) (header_crc (with_off h off))) ++ rest,
   header_crc (with_off h off)).
Proof.
  unfold header_crc. rewrite encode_header_length, !encode_header_parts, <- !app_assoc.
  rewrite (finalize_gen (front h) (le64 (h_off h)) (mid h) (le32 (h_hcrc h)) rest off).
  - cbv zeta. rewrite <- !app_assoc. reflexivity.
  - rewrite front_length. lia.
  - apply le64_length.
  - apply mid_length.
  - apply le32_length.
Qed.

Theorem write_record_bytes : forall h meta data off,
  let h' := with_hcrc (with_off h off) (header_crc (with_off h off)) in
  write_record h meta data off = (encode_header h' ++ meta ++ data, h').
Proof.
  intros h meta data off h'. subst h'. unfold write_record, partially_serialize. cbv zeta.
  destruct (N.of_nat (length (encode_header h ++ meta) + length data) <=? MAX_SINGLE_PASS_DATA_SIZE).
  - rewrite <- !app_assoc, finalize_encode, app_nil_r. reflexivity.
  - rewrite finalize_encode, <- !app_assoc. reflexivity.
Qed.

(* Every fixed-width field fits its width. Each bound is needed for the round trip: the encoder truncates a field
   to its width, so a header that violates one is not the decoding of its encoding. The key bytes are unconstrained. *)
Definition wf_header (h : header) : Prop :=
  h_magic h < 2^64 /\ N.of_nat (length (h_key h)) < 2^64 /\ h_msize h < 2^64 /\ h_dsize h < 2^64 /\
  h_flags h < 256 /\ h_off h < 2^64 /\ h_ts h < 2^64 /\ h_dcrc h < 2^32 /\ h_hcrc h < 2^32.

Lemma concat_skipn {A} (fs : list (list A)) i :
  skipn (list_sum (map (@length A) (firstn i fs))) (concat fs) = concat (skipn i fs).
Proof.
  revert i. induction fs as [|x fs IH]; intros [|i]; cbn [firstn map list_sum fold_right concat skipn]; try reflexivity.
  rewrite (skipn_app_len x _ (length x) _ eq_refl). apply IH.
Qed.

Definition header_fields (h : header) : list bytes :=
  [le64 (h_magic h); le64 (N.of_nat (length (h_key h))); h_key h; le64 (h_msize h); le64 (h_dsize h);
   [h_flags h mod 256]; le64 (h_off h); le64 (h_ts h); le32 (h_dcrc h); le32 (h_hcrc h)].

Lemma header_from h i o :
  o = list_sum (map (@length N) (firstn i (header_fields h))) ->
  skipn o (encode_header h) = concat (skipn i (header_fields h)).
Proof.
  intros ->. replace (encode_header h) with (concat (header_fields h)); [apply concat_skipn|].
  unfold encode_header, header_fields. cbn [concat]. rewrite app_nil_r. reflexivity.
Qed.

Local Ltac field_offset :=
  cbn [header_fields firstn map list_sum fold_right]; rewrite ?le64_length, ?le32_length; cbn [length]; lia.

Theorem decode_encode_header : forall h, wf_header h -> decode_header (encode_header h) = Some h.
Proof.
  intros h (Hm & Hk & Hms & Hds & Hf & Ho & Ht & Hdc & Hhc).
  (* the key length first: the other offsets depend on it *)
  assert (F1 : le_val (firstn 8 (skipn 8 (encode_header h))) = N.of_nat (length (h_key h))).
  { rewrite (header_from h 1 8%nat) by field_offset. cbn [header_fields skipn concat].
    rewrite (firstn_app_len _ _ 8%nat) by apply le64_length. apply le64_val, Hk. }
  unfold decode_header. cbv beta zeta. rewrite F1, Nat2N.id, nth_skipn0, encode_header_length.
  rewrite (header_from h 0 0%nat), (header_from h 2 16%nat),
          (header_from h 3 (16 + length (h_key h))%nat), (header_from h 4 (24 + length (h_key h))%nat),
          (header_from h 5 (32 + length (h_key h))%nat), (header_from h 6 (33 + length (h_key h))%nat),
          (header_from h 7 (41 + length (h_key h))%nat), (header_from h 8 (49 + length (h_key h))%nat),
          (header_from h 9 (53 + length (h_key h))%nat) by field_offset.
  cbn [header_fields skipn concat].
  rewrite !(firstn_app_len _ _ 8%nat) by apply le64_length.
  rewrite !(firstn_app_len _ _ 4%nat) by apply le32_length.
  rewrite !le64_val, !le32_val by assumption.
  rewrite (firstn_app_len (h_key h)) by reflexivity.
  destruct (Nat.ltb_spec (57 + length (h_key h)) 16) as [Hlt|_]; [lia|].
  rewrite Nat.eqb_refl. cbn [negb app nth]. rewrite (N.mod_small _ _ Hf). destruct h; reflexivity.
Qed.

Lemma slice_at pre X suf off len :
  off = N.of_nat (length pre) -> len = N.of_nat (length X) -> slice (pre ++ X ++ suf) off len = Some X.
Proof.
  intros -> ->. unfold slice.
  destruct (N.eqb_spec (N.of_nat (length X)) 0) as [Hz|Hnz].
  { destruct X; [reflexivity|cbn [length] in Hz; lia]. }
  destruct (N.leb_spec (N.of_nat (length pre) + N.of_nat (length X)) (N.of_nat (length (pre ++ X ++ suf)))) as [_|Hgt].
  - rewrite !Nat2N.id. f_equal. apply field_at; reflexivity.
  - rewrite !app_length in Hgt. lia.
Qed.

Lemma slice_length b off len x : slice b off len = Some x -> N.of_nat (length x) = len.
Proof.
  unfold slice. destruct (N.eqb_spec len 0) as [Hz|Hz].
  - intros [= <-]. cbn [length]. lia.
  - destruct (N.leb_spec (off + len) (N.of_nat (length b))) as [Hle|Hgt]; [|discriminate].
    intros [= <-]. rewrite firstn_length, skipn_length. lia.
Qed.

Lemma slice_firstn b n off len : off + len <= N.of_nat n -> slice (firstn n b) off len = slice b off len.
Proof.
  intros H. unfold slice. destruct (N.eqb_spec len 0) as [_|Hz]; [reflexivity|].
  rewrite firstn_length, window_firstn by lia.
  destruct (N.leb_spec (off + len) (N.of_nat (length b))) as [Hb|Hb].
  - destruct (N.leb_spec (off + len) (N.of_nat (Nat.min n (length b)))) as [_|C]; [reflexivity|lia].
  - destruct (N.leb_spec (off + len) (N.of_nat (Nat.min n (length b)))) as [C|_]; [lia|reflexivity].
Qed.

Lemma slice_wf b off len x : wf_bytes b -> slice b off len = Some x -> wf_bytes x.
Proof.
  intros H. unfold slice. destruct (len =? 0); [intros [= <-]; constructor|].
  destruct (off + len <=? N.of_nat (length b)); [|discriminate].
  intros [= <-]. apply wf_bytes_firstn, wf_bytes_skipn, H.
Qed.

(* a header decoded from bytes (< 256) fits its fields *)
Lemma decode_header_wf hb h : wf_bytes hb -> decode_header hb = Some h -> wf_header h.
Proof.
  intros Hb.
  assert (U64 : forall o, le_val (firstn 8 (skipn o hb)) < 2^64).
  { intros o. apply (le_val_firstn_lt 8), wf_bytes_skipn, Hb. }
  assert (U32 : forall o, le_val (firstn 4 (skipn o hb)) < 2^32).
  { intros o. apply (le_val_firstn_lt 4), wf_bytes_skipn, Hb. }
  unfold decode_header. cbv beta zeta.
  destruct (length hb <? 16)%nat; [discriminate|].
  destruct (negb (length hb =? 57 + N.to_nat (le_val (firstn 8 (skipn 8 hb))))%nat); [discriminate|].
  (* not by injection, which would unfold the field readers *)
  intros E. apply (f_equal (fun o => match o with Some h' => h' | None => h end)) in E. subst h.
  unfold wf_header. cbn [h_magic h_key h_msize h_dsize h_flags h_off h_ts h_dcrc h_hcrc].
  split; [apply U64|]. split.
  { rewrite firstn_length. specialize (U64 8%nat). lia. }
  split; [apply U64|]. split; [apply U64|]. split; [apply wf_bytes_nth, Hb|].
  split; [apply U64|]. split; [apply U64|]. split; apply U32.
Qed.

Lemma validate_header_None h :
  validate_header h = None <-> h_magic h = RECORD_MAGIC_BYTE /\ header_crc h = h_hcrc h.
Proof.
  unfold validate_header. destruct (N.eqb_spec (h_magic h) RECORD_MAGIC_BYTE); cbn [negb]; [|split; [discriminate|tauto]].
  destruct (N.eqb_spec (header_crc h) (h_hcrc h)); cbn [negb]; split; try discriminate; tauto.
Qed.

(* Entry::load of a record that lies where its header says: what is left are the two validations *)
Lemma entry_load_at prefix suffix h meta data :
  h_off h = N.of_nat (length prefix) -> h_msize h = N.of_nat (length meta) -> h_dsize h = N.of_nat (length data) ->
  entry_load (prefix ++ encode_header h ++ meta ++ data ++ suffix) h =
  match validate_header h with
  | Some e => RFail e
  | None => if crc32c data =? h_dcrc h then ROk (meta, data) else RFail EDataCrc
  end.
Proof.
  intros Hoff Hms Hds. unfold entry_load.
  rewrite (app_assoc meta), (app_assoc prefix), (slice_at (prefix ++ encode_header h) (meta ++ data) suffix).
  - rewrite Hms, Nat2N.id, skipn_app_exact, (firstn_app_len meta data _ eq_refl). reflexivity.
  - rewrite Hoff, app_length, encode_header_length. unfold header_size. lia.
  - rewrite Hms, Hds, app_length. lia.
Qed.

Lemma entry_load_ok prefix suffix h' meta data :
  h_off h' = N.of_nat (length prefix) ->
  h_msize h' = N.of_nat (length meta) -> h_dsize h' = N.of_nat (length data) ->
  h_magic h' = RECORD_MAGIC_BYTE -> header_crc h' = h_hcrc h' -> h_dcrc h' = crc32c data ->
  entry_load (prefix ++ encode_header h' ++ meta ++ data ++ suffix) h' = ROk (meta, data).
Proof.
  intros Hoff Hms Hds Hmg Hhc Hdc. rewrite entry_load_at by assumption.
  rewrite (proj2 (validate_header_None h') (conj Hmg Hhc)), Hdc, N.eqb_refl. reflexivity.
Qed.

Theorem entry_load_roundtrip : forall prefix suffix key ts meta data,
  let '(b, h') := write_record (new_header key ts meta data) meta data (N.of_nat (length prefix)) in
  entry_load (prefix ++ b ++ suffix) h' = ROk (meta, data).
Proof.
  intros prefix suffix key ts meta data. rewrite write_record_bytes. cbv beta iota. rewrite <- !app_assoc.
  apply entry_load_ok; reflexivity.
Qed.

Theorem altered_data_not_served : forall prefix suffix h' meta data data',
  length data' = length data -> crc32c data' <> crc32c data ->
  h_dcrc h' = crc32c data -> h_msize h' = N.of_nat (length meta) -> h_dsize h' = N.of_nat (length data) ->
  h_off h' = N.of_nat (length prefix) ->
  forall r, entry_load (prefix ++ encode_header h' ++ meta ++ data' ++ suffix) h' = r -> exists e, r = RFail e.
Proof.
  intros prefix suffix h' meta data data' Hlen Hne Hdc Hms Hds Hoff r <-. rewrite entry_load_at by congruence.
  destruct (validate_header h') as [e|]; [exists e; reflexivity|].
  rewrite Hdc, (proj2 (N.eqb_neq _ _) Hne). exists EDataCrc. reflexivity.
Qed.

Print Assumptions write_record_bytes.
Print Assumptions decode_encode_header.
Print Assumptions entry_load_roundtrip.
Print Assumptions altered_data_not_served.
