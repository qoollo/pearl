(* The encoder of the metadata map is inverted by the decoder; what the two acceptance predicates (`meta_decodes`:
   bincode::deserialize, `meta_ok`: the offline tools) say about trailing bytes; and computed examples of damage that is
   and is not noticed (no checksum covers the metadata). *)
Require Import Pearl.Base.Prelude Pearl.Base.LE Pearl.Base.LEProofs Pearl.Format.Meta.

Lemma take_u64_le64 w r : w < 2^64 -> take_u64 (le64 w ++ r) = Some (w, r).
Proof.
  intros Hw. unfold take_u64.
  destruct (Nat.ltb_spec (length (le64 w ++ r)) 8) as [Hlt|_]. { rewrite app_length, le64_length in Hlt. lia. }
  rewrite (firstn_app_len (le64 w) r 8 (le64_length w)), le64_val by exact Hw.
  replace (skipn 8 (le64 w ++ r)) with r by (symmetry; exact (skipn_app_len (le64 w) r 8 0 (le64_length w))).
  reflexivity.
Qed.

Lemma take_bytes_app k r : take_bytes (N.of_nat (length k)) (k ++ r) = Some (k, r).
Proof.
  unfold take_bytes.
  destruct (N.ltb_spec (N.of_nat (length (k ++ r))) (N.of_nat (length k))) as [Hlt|_]. { rewrite app_length in Hlt. lia. }
  rewrite Nat2N.id, (firstn_app_len k r (length k) eq_refl), skipn_app_exact. reflexivity.
Qed.

Lemma flat_map_encode_length es : (length es <= length (flat_map encode_entry es))%nat.
Proof.
  induction es as [|e r IH]; cbn [flat_map length]; [lia|].
  unfold encode_entry at 1. rewrite !app_length, !le64_length. lia.
Qed.

Lemma parse_entries_encode (es : list (bytes * bytes)) :
  forall fuel acc rest,
    (length es <= fuel)%nat ->
    Forall (fun e => is_utf8 (fst e) = true) es ->
    Forall (fun e => N.of_nat (length (fst e)) < 2^64 /\ N.of_nat (length (snd e)) < 2^64) es ->
    parse_entries fuel (N.of_nat (length es)) (flat_map encode_entry es ++ rest) acc = Some (rev acc ++ es, rest).
Proof.
  induction es as [|[k v] r IH]; intros fuel acc rest Hfuel Hutf Hfit.
  - cbn [length flat_map app]. rewrite app_nil_r. destruct fuel; reflexivity.
  - cbn [length] in Hfuel. destruct fuel as [|f]; [lia|].
    apply Forall_cons_iff in Hutf as [Hk Hutf]. apply Forall_cons_iff in Hfit as [[Hkl Hvl] Hfit].
    cbn [fst snd] in Hk, Hkl, Hvl.
    cbn [parse_entries length flat_map].
    rewrite (proj2 (N.eqb_neq _ 0)) by lia.
    unfold encode_entry at 1. cbn [fst snd].
    rewrite <- !app_assoc.
    rewrite (take_u64_le64 _ _ Hkl), take_bytes_app, Hk. cbn [negb].
    rewrite (take_u64_le64 _ _ Hvl), take_bytes_app.
    replace (N.of_nat (S (length r)) - 1) with (N.of_nat (length r)) by lia.
    rewrite (IH f ((k, v) :: acc) rest); [|lia|exact Hutf|exact Hfit].
    cbn [rev]. rewrite <- app_assoc. reflexivity.
Qed.

(* the premises on lengths: what is written as a u64 fits a u64 (always so on a real machine; `nat` is unbounded) *)
Theorem meta_parse_encode : forall es rest,
  N.of_nat (length es) < 2^64 ->
  Forall (fun e => N.of_nat (length (fst e)) < 2^64 /\ N.of_nat (length (snd e)) < 2^64) es ->
  Forall (fun e => is_utf8 (fst e) = true) es ->
  meta_parse (encode_meta es ++ rest) = Some (es, rest).
Proof.
  intros es rest Hcount Hfit Hutf.
  unfold meta_parse, encode_meta.
  rewrite <- app_assoc.
  rewrite (take_u64_le64 _ _ Hcount).
  rewrite parse_entries_encode; [reflexivity| |exact Hutf|exact Hfit].
  rewrite !app_length. pose proof (flat_map_encode_length es) as Hl. lia.
Qed.

Corollary meta_decodes_encode : forall es,
  N.of_nat (length es) < 2^64 ->
  Forall (fun e => N.of_nat (length (fst e)) < 2^64 /\ N.of_nat (length (snd e)) < 2^64) es ->
  Forall (fun e => is_utf8 (fst e) = true) es ->
  meta_decodes (encode_meta es) = true.
Proof.
  intros es Hcount Hfit Hutf. unfold meta_decodes.
  rewrite <- (app_nil_r (encode_meta es)).
  rewrite (meta_parse_encode es [] Hcount Hfit Hutf). reflexivity.
Qed.

(* without distinct keys the tools refuse the image: `meta_ok` of an encoding is exactly `keys_distinct` *)
Corollary meta_ok_encode_iff : forall es,
  N.of_nat (length es) < 2^64 ->
  Forall (fun e => N.of_nat (length (fst e)) < 2^64 /\ N.of_nat (length (snd e)) < 2^64) es ->
  Forall (fun e => is_utf8 (fst e) = true) es ->
  meta_ok (encode_meta es) = keys_distinct (map fst es).
Proof.
  intros es Hcount Hfit Hutf. unfold meta_ok.
  rewrite <- (app_nil_r (encode_meta es)).
  rewrite (meta_parse_encode es [] Hcount Hfit Hutf). reflexivity.
Qed.

Corollary meta_ok_encode : forall es,
  N.of_nat (length es) < 2^64 ->
  Forall (fun e => N.of_nat (length (fst e)) < 2^64 /\ N.of_nat (length (snd e)) < 2^64) es ->
  Forall (fun e => is_utf8 (fst e) = true) es ->
  keys_distinct (map fst es) = true ->
  meta_ok (encode_meta es) = true.
Proof. intros es Hcount Hfit Hutf Hdist. rewrite meta_ok_encode_iff by assumption. exact Hdist. Qed.

Theorem meta_ok_no_trailing : forall es x rest,
  N.of_nat (length es) < 2^64 ->
  Forall (fun e => N.of_nat (length (fst e)) < 2^64 /\ N.of_nat (length (snd e)) < 2^64) es ->
  Forall (fun e => is_utf8 (fst e) = true) es ->
  meta_ok (encode_meta es ++ x :: rest) = false.
Proof.
  intros es x rest Hcount Hfit Hutf. unfold meta_ok.
  rewrite (meta_parse_encode es (x :: rest) Hcount Hfit Hutf). reflexivity.
Qed.

Theorem meta_decodes_ignores_trailing : forall es x rest,
  N.of_nat (length es) < 2^64 ->
  Forall (fun e => N.of_nat (length (fst e)) < 2^64 /\ N.of_nat (length (snd e)) < 2^64) es ->
  Forall (fun e => is_utf8 (fst e) = true) es ->
  meta_decodes (encode_meta es ++ x :: rest) = true.
Proof.
  intros es x rest Hcount Hfit Hutf. unfold meta_decodes.
  rewrite (meta_parse_encode es (x :: rest) Hcount Hfit Hutf). reflexivity.
Qed.

(* the map {"v": "1"} *)
Definition m1 : bytes := encode_meta [([118], [49])].

Example m1_bytes : m1 = [1;0;0;0;0;0;0;0; 1;0;0;0;0;0;0;0; 118; 1;0;0;0;0;0;0;0; 49].
Proof. vm_compute; reflexivity. Qed.

Example m1_ok : meta_ok m1 = true /\ length m1 = 26%nat.
Proof. vm_compute. split; reflexivity. Qed.

(* one content byte flipped (the value byte, index 25: 49 -> 113, xor 0x40): a different image of the same length, accepted *)
Example content_flip_is_accepted :
  let m1' := updN m1 25 (fun x => N.lxor x 64) in
  m1' = [1;0;0;0;0;0;0;0; 1;0;0;0;0;0;0;0; 118; 1;0;0;0;0;0;0;0; 113] /\
  m1' <> m1 /\ length m1' = length m1 /\ meta_ok m1' = true /\ meta_parse m1' = Some ([([118], [113])], []).
Proof.
  vm_compute. repeat split; try reflexivity. intros Heq. discriminate Heq.
Qed.

(* the value length prefix (index 17) set from 1 to 0: bincode decodes it (one byte left over), the tools refuse it *)
Example length_shrink_decodes_but_is_rejected :
  let m1s := updN m1 17 (fun _ => 0) in
  m1s = [1;0;0;0;0;0;0;0; 1;0;0;0;0;0;0;0; 118; 0;0;0;0;0;0;0;0; 49] /\
  meta_parse m1s = Some ([([118], [])], [49]) /\ meta_decodes m1s = true /\ meta_ok m1s = false.
Proof. vm_compute. repeat split; reflexivity. Qed.

(* the key byte 118 replaced by 246 (not the start of any UTF-8 sequence): not a String, does not decode *)
Example bad_utf8_rejected :
  let m1u := updN m1 16 (fun _ => 246) in
  m1u = [1;0;0;0;0;0;0;0; 1;0;0;0;0;0;0;0; 246; 1;0;0;0;0;0;0;0; 49] /\
  meta_decodes m1u = false /\ meta_ok m1u = false.
Proof. vm_compute. repeat split; reflexivity. Qed.

Example repeated_key_rejected :
  meta_decodes (encode_meta [([118], [49]); ([118], [50])]) = true /\
  meta_ok (encode_meta [([118], [49]); ([118], [50])]) = false.
Proof. vm_compute. split; reflexivity. Qed.


Print Assumptions meta_parse_encode.
Print Assumptions meta_decodes_encode.
Print Assumptions meta_ok_encode.
Print Assumptions meta_ok_encode_iff.
Print Assumptions meta_ok_no_trailing.
Print Assumptions meta_decodes_ignores_trailing.
Print Assumptions content_flip_is_accepted.
Print Assumptions length_shrink_decodes_but_is_rejected.
