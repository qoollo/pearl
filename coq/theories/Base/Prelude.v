(* Common imports, and list and N lemmas that files of more than one directory use. *)
From Coq Require Export List Arith NArith ZArith Lia Bool.
Export ListNotations.
Global Open Scope N_scope.

Global Arguments N.add : simpl never.
Global Arguments N.sub : simpl never.
Global Arguments N.mul : simpl never.
Global Arguments N.div : simpl never.
Global Arguments N.modulo : simpl never.
Global Arguments N.eqb : simpl never.
Global Arguments N.ltb : simpl never.
Global Arguments N.leb : simpl never.
Global Arguments N.pow : simpl never.
Global Arguments N.shiftr : simpl never.
Global Arguments N.shiftl : simpl never.
Global Arguments N.testbit : simpl never.
Global Arguments N.lor : simpl never.
Global Arguments N.land : simpl never.
Global Arguments N.lxor : simpl never.

Definition nthN (l : list N) (i : N) : N := nth (N.to_nat i) l 0.

Fixpoint updN {A} (l : list A) (i : nat) (f : A -> A) : list A :=
  match l, i with
  | [], _ => []
  | x :: r, O => f x :: r
  | x :: r, S j => x :: updN r j f
  end.

Lemma fold_left_inv {A B} (f : A -> B -> A) (Q : A -> Prop) :
  (forall a b, Q a -> Q (f a b)) -> forall l a, Q a -> Q (fold_left f l a).
Proof. intros Hf. induction l as [|x l IH]; intros a Ha; [exact Ha|]. apply (IH (f a x)), Hf, Ha. Qed.

Lemma firstn_app_ge {A} (a l : list A) n : (length a <= n)%nat -> firstn n (a ++ l) = a ++ firstn (n - length a) l.
Proof. intros H. rewrite firstn_app, firstn_all2 by exact H. reflexivity. Qed.

Lemma firstn_app_le {A} (a l : list A) n : (n <= length a)%nat -> firstn n (a ++ l) = firstn n a.
Proof. intros H. rewrite firstn_app. replace (n - length a)%nat with 0%nat by lia. apply app_nil_r. Qed.

Lemma window_firstn {A} (b : list A) n o k : (o + k <= n)%nat -> firstn k (skipn o (firstn n b)) = firstn k (skipn o b).
Proof.
  intros H. rewrite skipn_firstn_comm, firstn_firstn.
  replace (Nat.min k (n - o)) with k by lia. reflexivity.
Qed.

Lemma skipn_app_exact {A} (a l : list A) : skipn (length a) (a ++ l) = l.
Proof. induction a as [|x a IH]; cbn [length app skipn]; auto. Qed.

Lemma skipn_app_len {A} (a l : list A) (k n : nat) :
  length a = k -> skipn (k + n)%nat (a ++ l) = skipn n l.
Proof. intros <-. induction a as [|x a IH]; cbn [length app Nat.add skipn]; auto. Qed.

Lemma firstn_app_len {A} (a l : list A) (k : nat) : length a = k -> firstn k (a ++ l) = a.
Proof. intros <-. rewrite firstn_app_le, firstn_all by lia. reflexivity. Qed.

Lemma field_at {A} (a v c : list A) (o n : nat) :
  length a = o -> length v = n -> firstn n (skipn o (a ++ v ++ c)) = v.
Proof. intros <- <-. rewrite skipn_app_exact. apply firstn_app_len. reflexivity. Qed.

Lemma nth_skipn0 {A} (l : list A) (n : nat) (d : A) : nth n l d = nth 0 (skipn n l) d.
Proof.
  revert l; induction n as [|n IH]; intros l; [reflexivity|].
  destruct l as [|x l]; [reflexivity|]. cbn [nth skipn]. apply IH.
Qed.

Lemma flat_map_const_length {A B} (f : A -> list B) (c : nat) (l : list A) :
  (forall x, length (f x) = c) -> length (flat_map f l) = (length l * c)%nat.
Proof.
  intros Hf. induction l as [|x l IHl]; cbn [flat_map length]; [reflexivity|].
  rewrite app_length, Hf, IHl. lia.
Qed.

Lemma lt_pow2_testbit s n : s < 2^n <-> (forall m, n <= m -> N.testbit s m = false).
Proof.
  split.
  - intros H m Hm. destruct (N.eq_dec s 0) as [->|Hs]; [apply N.bits_0|].
    apply N.bits_above_log2. apply N.log2_lt_pow2 in H; lia.
  - intros H. destruct (N.eq_dec s 0) as [->|Hs]. { apply N.neq_0_lt_0, N.pow_nonzero; lia. }
    apply N.log2_lt_pow2; [lia|]. destruct (N.lt_ge_cases (N.log2 s) n) as [|Hge]; [assumption|].
    specialize (H _ Hge). rewrite N.bit_log2 in H by assumption. discriminate.
Qed.

Lemma list_ind2 {A B} (P : list A -> list B -> Prop) :
  P [] [] -> (forall x y a b, length a = length b -> P a b -> P (x :: a) (y :: b)) ->
  forall a b, length a = length b -> P a b.
Proof.
  intros H0 HS. induction a as [|x a IH]; intros [|y b] Hl; try discriminate Hl; [exact H0|].
  injection Hl as Hl. exact (HS x y a b Hl (IH b Hl)).
Qed.

Lemma filter_rev {A} (p : A -> bool) l : filter p (rev l) = rev (filter p l).
Proof.
  induction l as [|x l IH]; [reflexivity|]. cbn [rev filter]. rewrite filter_app, IH. cbn [filter].
  destruct (p x); [reflexivity|apply app_nil_r].
Qed.

Lemma flat_map_rev {A B} (f : A -> list B) l : (forall x, rev (f x) = f x) -> flat_map f (rev l) = rev (flat_map f l).
Proof.
  intros Hf. induction l as [|x l IH]; [reflexivity|].
  cbn [rev flat_map]. rewrite flat_map_app, IH, rev_app_distr, Hf. cbn [flat_map]. rewrite app_nil_r. reflexivity.
Qed.

Lemma Forall2_impl {A B} (R R' : A -> B -> Prop) l l' :
  (forall a b, R a b -> R' a b) -> Forall2 R l l' -> Forall2 R' l l'.
Proof. intros HI. induction 1 as [|a b l l' Hab HF IH]; constructor; [apply HI, Hab|exact IH]. Qed.

Lemma nth_error_app_l {A} (l l' : list A) c x : nth_error l c = Some x -> nth_error (l ++ l') c = Some x.
Proof. intros H. rewrite nth_error_app1; [exact H|]. apply nth_error_Some. rewrite H. discriminate. Qed.

Lemma Forall2_diag {A} (R : A -> A -> Prop) (l : list A) : (forall x, R x x) -> Forall2 R l l.
Proof. intros HR. induction l as [|x r IH]; constructor; auto. Qed.

Lemma Forall2_map_r {A} (R : A -> A -> Prop) (g : A -> A) (l : list A) : (forall x, R x (g x)) -> Forall2 R l (map g l).
Proof. intros HR. induction l as [|x r IH]; constructor; auto. Qed.

Lemma Forall2_len {A B} (R : A -> B -> Prop) l l' : Forall2 R l l' -> length l = length l'.
Proof. intros HF. induction HF as [|x0 y0 l l' HR HF IH]; cbn; [reflexivity | rewrite IH; reflexivity]. Qed.

Lemma Forall2_nth_error {A B} (R : A -> B -> Prop) l l' c x y :
  Forall2 R l l' -> nth_error l c = Some x -> nth_error l' c = Some y -> R x y.
Proof.
  intros HF. revert c. induction HF as [|x0 y0 l l' HR HF IH]; intros [|c] Hx Hy; try discriminate Hx.
  - injection Hx as <-. injection Hy as <-. exact HR.
  - exact (IH c Hx Hy).
Qed.

Lemma Forall2_step {A B} (S : A -> A -> Prop) (R : A -> B -> Prop) l l1 l' :
  (forall x z y, S x z -> R x y -> R z y) -> Forall2 S l l1 -> Forall2 R l l' -> Forall2 R l1 l'.
Proof.
  intros HSR HS. revert l'. induction HS as [|x0 z0 l l1 Hxz HS IH]; intros l' HR; inversion HR; subst; constructor.
  - eapply HSR; eassumption.
  - apply IH. assumption.
Qed.

Lemma Forall2_Forall {A B} (R : A -> B -> Prop) (Q : A -> Prop) (Q' : B -> Prop) l l' :
  (forall x y, R x y -> Q x -> Q' y) -> Forall2 R l l' -> Forall Q l -> Forall Q' l'.
Proof.
  intros HRQ HF. induction HF as [|x0 y0 l l' HR HF IH]; intros HQ; [constructor|].
  inversion HQ as [|? ? Hx Hr]; subst. constructor; [eapply HRQ; eauto | apply IH; exact Hr].
Qed.

Lemma Forall2_map_eq {A B C} (R : A -> B -> Prop) (g : A -> C) (g' : B -> C) l l' :
  (forall x y, R x y -> g x = g' y) -> Forall2 R l l' -> map g l = map g' l'.
Proof.
  intros Hg HF. induction HF as [|x0 y0 l l' HR HF IH]; [reflexivity|]. cbn. rewrite (Hg _ _ HR), IH. reflexivity.
Qed.
