(* CRC-32C detects every error burst of at most 32 bits, for every data length and position. The register update is
   linear over xor, so the checksums of two strings of one length differ by what their difference leaves in a register
   that starts at zero. Zeros in front leave it at zero; a burst of at most 32 bits leaves its own word, stepped once
   per bit; and a step sends no nonzero 32-bit state to zero, because the polynomial has its top bit set. *)
Require Import Pearl.Base.Prelude Pearl.Base.LE Pearl.Base.Crc.

Lemma Zs_0 : Zs 0 = 0. Proof. reflexivity. Qed.

Lemma Zs_lxor a b : Zs (N.lxor a b) = N.lxor (Zs a) (Zs b).
Proof.
  unfold Zs. apply N.bits_inj. intros m.
  rewrite !N.lxor_spec, N.shiftr_lxor, !N.lxor_spec.
  destruct (N.testbit a 0), (N.testbit b 0); cbn [xorb]; rewrite ?N.bits_0;
  destruct (N.testbit (N.shiftr a 1) m), (N.testbit (N.shiftr b 1) m), (N.testbit P m); reflexivity.
Qed.

Lemma lt_pow2_testbit s n : s < 2^n <-> (forall m, n <= m -> N.testbit s m = false).
Proof. exact (Pearl.Base.Prelude.lt_pow2_testbit s n). Qed.

Lemma P_lt : P < 2^32. Proof. reflexivity. Qed.
Lemma P_top : N.testbit P 31 = true. Proof. reflexivity. Qed.

Lemma lxor_lt32 a b : a < 2^32 -> b < 2^32 -> N.lxor a b < 2^32.
Proof.
  intros Ha Hb. apply lt_pow2_testbit. intros m Hm. rewrite N.lxor_spec.
  rewrite (proj1 (lt_pow2_testbit a 32) Ha m Hm), (proj1 (lt_pow2_testbit b 32) Hb m Hm). reflexivity.
Qed.

Lemma Zs_lt s : s < 2^32 -> Zs s < 2^32.
Proof.
  intros H. apply lxor_lt32; [|destruct (N.testbit s 0); reflexivity].
  rewrite N.shiftr_div_pow2. apply N.div_lt_upper_bound; [discriminate|]. change (2^1) with 2. lia.
Qed.

Lemma feed_lt s c : s < 2^32 -> feed s c < 2^32.
Proof. intros H. unfold feed. apply Zs_lt, lxor_lt32; [exact H|]. destruct c; reflexivity. Qed.

Lemma Zs_zero_inv s : s < 2^32 -> Zs s = 0 -> s = 0.
Proof.
  intros H HZ. unfold Zs in HZ. destruct (N.testbit s 0) eqn:E0.
  - exfalso. apply N.lxor_eq in HZ.
    assert (Hb : N.testbit (N.shiftr s 1) 31 = true) by (rewrite HZ; apply P_top).
    rewrite N.shiftr_spec in Hb by lia. cbn in Hb.
    rewrite (proj1 (lt_pow2_testbit s 32) H) in Hb by lia. discriminate.
  - rewrite N.lxor_0_r in HZ. apply N.bits_inj. intros m. rewrite N.bits_0.
    destruct (N.eq_dec m 0) as [->|Hm]; [assumption|].
    replace m with ((m - 1) + 1) by lia. rewrite <- N.shiftr_spec by lia. rewrite HZ. apply N.bits_0.
Qed.

Fixpoint iter (n : nat) (x : N) : N := match n with O => x | S n' => Zs (iter n' x) end.

Lemma iter_Zs n x : iter n (Zs x) = Zs (iter n x).
Proof. induction n; cbn; [reflexivity|]. rewrite IHn. reflexivity. Qed.
Lemma iter_lt n s : s < 2^32 -> iter n s < 2^32.
Proof. induction n; cbn; auto using Zs_lt. Qed.
Lemma iter_lxor n a b : iter n (N.lxor a b) = N.lxor (iter n a) (iter n b).
Proof. induction n; cbn; [reflexivity|]. rewrite IHn. apply Zs_lxor. Qed.
Lemma iter_0 n : iter n 0 = 0.
Proof. induction n; cbn; [reflexivity|]. rewrite IHn. reflexivity. Qed.
Lemma iter_nonzero n s : s < 2^32 -> s <> 0 -> iter n s <> 0.
Proof.
  intros H Hs. induction n; cbn; [assumption|]. intros HZ. apply IHn.
  apply Zs_zero_inv; [apply iter_lt; assumption|assumption].
Qed.

Lemma Zs_pow2 k : Zs (2^(k+1)) = 2^k.
Proof.
  unfold Zs. rewrite N.pow2_bits_eqb. replace (N.eqb (k+1) 0) with false by (symmetry; apply N.eqb_neq; lia).
  rewrite N.lxor_0_r, N.shiftr_div_pow2, N.pow_add_r. cbn. rewrite N.div_mul by lia. reflexivity.
Qed.
Lemma iter_pow2 m : iter m (2^(N.of_nat m)) = 1.
Proof.
  induction m; [reflexivity|]. cbn [iter].
  rewrite <- iter_Zs. replace (N.of_nat (S m)) with (N.of_nat m + 1) by lia. rewrite Zs_pow2. exact IHm.
Qed.

Fixpoint le_word (b : list bool) : N := match b with [] => 0 | x :: r => b2n x + 2 * le_word r end.
Lemma le_word_lt b : le_word b < 2^(N.of_nat (length b)).
Proof.
  induction b as [|x r IH]; cbn [le_word length]; [reflexivity|].
  replace (N.of_nat (S (length r))) with (N.of_nat (length r) + 1) by lia.
  rewrite N.pow_add_r. destruct x; cbn [b2n]; lia.
Qed.
Lemma le_word_app b c : le_word (b ++ [c]) = le_word b + b2n c * 2^(N.of_nat (length b)).
Proof.
  induction b as [|x r IH]; cbn [le_word length app]; [cbn; lia|].
  rewrite IH. replace (N.of_nat (S (length r))) with (N.of_nat (length r) + 1) by lia.
  rewrite N.pow_add_r. lia.
Qed.
Lemma le_word_nonzero b : existsb (fun x => x) b = true -> le_word b <> 0.
Proof. induction b as [|x r IH]; cbn [existsb le_word]; [discriminate|]. destruct x; cbn [b2n orb]; [lia|]. intros H. specialize (IH H). lia. Qed.

Lemma add_high_lxor w c m : w < 2^m -> w + b2n c * 2^m = N.lxor w (b2n c * 2^m).
Proof.
  intros H. destruct c; cbn [b2n]; [|rewrite N.mul_0_l, N.add_0_r, N.lxor_0_r; reflexivity].
  rewrite N.mul_1_l. apply N.add_nocarry_lxor. apply N.bits_inj. intros j.
  rewrite N.land_spec, N.bits_0, N.pow2_bits_eqb. destruct (N.eqb_spec m j) as [->|]; [|apply andb_false_r].
  rewrite (proj1 (lt_pow2_testbit w j) H) by lia. reflexivity.
Qed.

Lemma feed_split s c : feed s c = N.lxor (Zs s) (if c then Zs 1 else 0).
Proof. unfold feed. rewrite Zs_lxor. destruct c; reflexivity. Qed.

Lemma run_zero_word b : (length b <= 32)%nat -> run 0 b = iter (length b) (le_word b).
Proof.
  induction b as [|c b IH] using rev_ind; intros Hl; [reflexivity|].
  rewrite app_length in *. cbn [length] in *. unfold run in *. rewrite fold_left_app. cbn [fold_left].
  rewrite IH by lia. rewrite feed_split, le_word_app.
  replace (length b + 1)%nat with (S (length b)) by lia. cbn [iter].
  rewrite add_high_lxor by apply le_word_lt. rewrite iter_lxor, Zs_lxor. f_equal.
  destruct c; cbn [b2n]; [|rewrite N.mul_0_l, iter_0; reflexivity].
  rewrite N.mul_1_l, iter_pow2. reflexivity.
Qed.

Lemma run_zeros n s : run s (repeat false n) = iter n s.
Proof.
  revert s. induction n; intros s; [reflexivity|].
  cbn [repeat run fold_left iter]. rewrite feed_split, N.lxor_0_r. fold (run (Zs s) (repeat false n)). rewrite IHn. apply iter_Zs.
Qed.

Lemma run_zero_zeros n : run 0 (repeat false n) = 0.
Proof. rewrite run_zeros. apply iter_0. Qed.
Lemma run_zeros_nonzero n s : s < 2^32 -> s <> 0 -> run s (repeat false n) <> 0.
Proof. rewrite run_zeros. apply iter_nonzero. Qed.

Lemma le_word_lt32 b : (length b <= 32)%nat -> le_word b < 2^32.
Proof. intros Hl. eapply N.lt_le_trans; [apply le_word_lt|]. apply N.pow_le_mono_r; lia. Qed.

Theorem burst_nonzero i j b :
  (length b <= 32)%nat -> existsb (fun x => x) b = true ->
  run 0 (repeat false i ++ b ++ repeat false j) <> 0.
Proof.
  intros Hl Hb. unfold run. rewrite !fold_left_app. fold (run 0 (repeat false i)). rewrite run_zero_zeros.
  fold (run 0 b). rewrite run_zero_word by assumption.
  apply run_zeros_nonzero.
  - apply iter_lt, le_word_lt32, Hl.
  - apply iter_nonzero; [apply le_word_lt32, Hl | apply le_word_nonzero, Hb].
Qed.

Lemma run_lxor a b : length a = length b -> forall s t, run (N.lxor s t) (xorl a b) = N.lxor (run s a) (run t b).
Proof.
  revert a b. refine (list_ind2 _ _ _); [reflexivity|]. intros x y a b _ IH s t.
  cbn [xorl run fold_left]. fold (run (feed (N.lxor s t) (xorb x y)) (xorl a b)).
  replace (feed (N.lxor s t) (xorb x y)) with (N.lxor (feed s x) (feed t y)).
  - apply IH.
  - unfold feed. rewrite <- Zs_lxor. f_equal.
    replace (b2n (xorb x y)) with (N.lxor (b2n x) (b2n y)) by (destruct x, y; reflexivity).
    rewrite !N.lxor_assoc. f_equal. rewrite <- !N.lxor_assoc. f_equal. apply N.lxor_comm.
Qed.

Theorem crc_detects_burst d i j b :
  length d = (i + length b + j)%nat -> (length b <= 32)%nat -> existsb (fun x => x) b = true ->
  crc (xorl d (repeat false i ++ b ++ repeat false j)) <> crc d.
Proof.
  intros Hd Hl Hb Heq. unfold crc in Heq.
  apply (f_equal (fun x => N.lxor x 0xFFFFFFFF)) in Heq. rewrite !N.lxor_assoc, !N.lxor_nilpotent, !N.lxor_0_r in Heq.
  set (e := repeat false i ++ b ++ repeat false j) in *.
  assert (Hle : length d = length e) by (subst e; rewrite !app_length, !repeat_length; lia).
  pose proof (run_lxor d e Hle 0xFFFFFFFF 0) as H. rewrite N.lxor_0_r in H. rewrite H in Heq.
  apply (burst_nonzero i j b Hl Hb). fold e.
  apply (f_equal (N.lxor (run 0xFFFFFFFF d))) in Heq.
  rewrite <- N.lxor_assoc, N.lxor_nilpotent, N.lxor_0_l in Heq. exact Heq.
Qed.

Lemma fold_left_flat_map {A B C} (f : A -> C -> A) (g : B -> list C) l :
  forall a, fold_left f (flat_map g l) a = fold_left (fun a b => fold_left f (g b) a) l a.
Proof. induction l as [|b l IH]; intros a; cbn [flat_map fold_left]; [|rewrite fold_left_app, IH]; reflexivity. Qed.

(* Stated through fold_left_flat_map and given as a term: letting unification or the kernel compare
   `crc_byte s b` with `run s (byte_bits b)` by unfolding `fold_left` runs the eight feeds on a variable. *)
Lemma crc_byte_run bs s : fold_left crc_byte bs s = run s (bits_of bs).
Proof. exact (eq_sym (fold_left_flat_map feed byte_bits bs s)). Qed.

Lemma crc32c_bits bs : crc32c bs = crc (bits_of bs).
Proof. unfold crc32c, crc. rewrite crc_byte_run. reflexivity. Qed.

Lemma crc32c_lt bs : crc32c bs < 2^32.
Proof.
  rewrite crc32c_bits. unfold crc, run. apply lxor_lt32; [|reflexivity].
  apply (fold_left_inv feed (fun s => s < 2^32)); [|reflexivity]. intros s c. apply feed_lt.
Qed.

Theorem crc32c_detects_burst32 : forall d d' i j b,
  bits_of d' = xorl (bits_of d) (repeat false i ++ b ++ repeat false j) ->
  length (bits_of d) = (i + length b + j)%nat -> (length b <= 32)%nat -> existsb (fun x => x) b = true ->
  crc32c d' <> crc32c d.
Proof.
  intros d d' i j b Hd' Hlen Hb Hex. rewrite !crc32c_bits, Hd'.
  apply crc_detects_burst; assumption.
Qed.

Lemma bits_of_app a b : bits_of (a ++ b) = bits_of a ++ bits_of b.
Proof. apply flat_map_app. Qed.

Lemma bits_of_length l : length (bits_of l) = (8 * length l)%nat.
Proof. unfold bits_of. rewrite (flat_map_const_length byte_bits 8) by reflexivity. lia. Qed.

Lemma xorl_app a c : length a = length c -> forall b d, xorl (a ++ b) (c ++ d) = xorl a c ++ xorl b d.
Proof.
  revert a c. refine (list_ind2 _ _ _); [reflexivity|].
  intros x y a c _ IH b d. cbn [app xorl]. rewrite IH. reflexivity.
Qed.

Lemma xorl_false_r a : xorl a (repeat false (length a)) = a.
Proof.
  induction a as [|x a IH]; [reflexivity|]. cbn [length repeat xorl]. rewrite xorb_false_r, IH. reflexivity.
Qed.

Lemma xorl_cancel a b : length a = length b -> xorl a (xorl a b) = b.
Proof.
  revert a b. refine (list_ind2 _ _ _); [reflexivity|].
  intros x y a b _ IH. cbn [xorl]. rewrite IH. destruct x, y; reflexivity.
Qed.

Lemma xorl_length a b : length a = length b -> length (xorl a b) = length a.
Proof.
  revert a b. refine (list_ind2 _ _ _); [reflexivity|].
  intros x y a b _ IH. cbn [xorl length]. rewrite IH. reflexivity.
Qed.

Lemma xorl_allfalse a b : length a = length b -> existsb (fun x => x) (xorl a b) = false -> a = b.
Proof.
  revert a b. refine (list_ind2 _ _ _); [reflexivity|].
  intros x y a b _ IH E. cbn [xorl existsb] in E. apply orb_false_iff in E. destruct E as [Exy E].
  rewrite (IH E). destruct x, y; try reflexivity; discriminate Exy.
Qed.

Lemma byte_bits_inj x y : x < 256 -> y < 256 -> byte_bits x = byte_bits y -> x = y.
Proof.
  intros Hx Hy E. apply N.bits_inj. intros n.
  destruct (N.lt_ge_cases n 8) as [Hn|Hn].
  - rewrite <- (N2Nat.id n). apply (ext_in_map E), in_seq. lia.
  - rewrite (proj1 (lt_pow2_testbit x 8) Hx n Hn), (proj1 (lt_pow2_testbit y 8) Hy n Hn). reflexivity.
Qed.

Lemma bits_of_inj w w' :
  wf_bytes w -> wf_bytes w' -> length w = length w' -> bits_of w = bits_of w' -> w = w'.
Proof.
  intros Hw Hw' Hl. revert w w' Hl Hw Hw'. refine (list_ind2 _ _ _); [reflexivity|].
  intros x y w w' _ IH Hw Hw' E. inversion Hw as [|? ? Hx Hw1]; subst. inversion Hw' as [|? ? Hy Hw1']; subst.
  change (byte_bits x ++ bits_of w = byte_bits y ++ bits_of w') in E.
  assert (E8 : firstn 8 (byte_bits x ++ bits_of w) = firstn 8 (byte_bits y ++ bits_of w')) by (rewrite E; reflexivity).
  apply (f_equal (skipn 8)) in E. cbn [byte_bits seq map app firstn skipn] in E, E8.
  rewrite (byte_bits_inj x y Hx Hy E8), (IH Hw1 Hw1' E). reflexivity.
Qed.

Theorem crc32c_detects_4_bytes : forall p w w' s,
  wf_bytes w -> wf_bytes w' -> length w = length w' -> (length w <= 4)%nat -> w <> w' ->
  crc32c (p ++ w ++ s) <> crc32c (p ++ w' ++ s).
Proof.
  intros p w w' s Hw Hw' Hl H4 Hne.
  assert (Hbl : length (bits_of w) = length (bits_of w')) by (rewrite !bits_of_length; lia).
  apply not_eq_sym.
  apply (crc32c_detects_burst32 _ _ (length (bits_of p)) (length (bits_of s)) (xorl (bits_of w) (bits_of w'))).
  - rewrite !bits_of_app, xorl_app by (rewrite repeat_length; reflexivity).
    rewrite xorl_app by (rewrite xorl_length by exact Hbl; reflexivity).
    rewrite !xorl_false_r, xorl_cancel by exact Hbl. reflexivity.
  - rewrite !bits_of_app, !app_length, xorl_length by exact Hbl. lia.
  - rewrite xorl_length, bits_of_length by exact Hbl. lia.
  - apply not_false_iff_true. intros E. apply Hne, bits_of_inj; try assumption. apply xorl_allfalse; assumption.
Qed.

Print Assumptions crc32c_detects_4_bytes.
Print Assumptions crc32c_detects_burst32.
