(* Little-endian codecs: lengths, well-formed bytes, and that decoding inverts encoding below the width. *)
Require Import Pearl.Base.Prelude Pearl.Base.LE.

Lemma le_bytes_length n w : length (le_bytes n w) = n.
Proof. revert w; induction n as [|n IH]; intros w; cbn [le_bytes length]; auto. Qed.

Lemma le16_length x : length (le16 x) = 2%nat. Proof. apply le_bytes_length. Qed.
Lemma le32_length x : length (le32 x) = 4%nat. Proof. apply le_bytes_length. Qed.
Lemma le64_length x : length (le64 x) = 8%nat. Proof. apply le_bytes_length. Qed.

Lemma le_bytes_wf n w : wf_bytes (le_bytes n w).
Proof.
  revert w; induction n as [|n IH]; intros w; cbn [le_bytes]; constructor.
  - apply N.mod_lt; lia.
  - apply IH.
Qed.

Lemma le_val_bytes n w : w < 2^(8 * N.of_nat n) -> le_val (le_bytes n w) = w.
Proof.
  revert w; induction n as [|n IH]; intros w Hw; cbn [le_bytes le_val].
  - cbn in Hw. lia.
  - rewrite IH.
    + pose proof (N.div_mod w 256 ltac:(lia)). lia.
    + replace (8 * N.of_nat (S n)) with (8 + 8 * N.of_nat n) in Hw by lia.
      rewrite N.pow_add_r in Hw. change (2^8) with 256 in Hw.
      apply N.div_lt_upper_bound; lia.
Qed.

Lemma le16_val x : x < 2^16 -> le_val (le16 x) = x. Proof. apply (le_val_bytes 2). Qed.
Lemma le32_val x : x < 2^32 -> le_val (le32 x) = x. Proof. apply (le_val_bytes 4). Qed.
Lemma le64_val x : x < 2^64 -> le_val (le64 x) = x. Proof. apply (le_val_bytes 8). Qed.

Lemma le_bytes_val bs : wf_bytes bs -> le_bytes (length bs) (le_val bs) = bs.
Proof.
  induction 1 as [|b r Hb Hr IH]; cbn [length le_bytes le_val]; [reflexivity|].
  replace (b + 256 * le_val r) with (b + le_val r * 256) by lia.
  f_equal.
  - rewrite N.mod_add by lia. apply N.mod_small; assumption.
  - rewrite N.div_add by lia. rewrite N.div_small by assumption.
    rewrite N.add_0_l. exact IH.
Qed.

Lemma le_val_lt bs : wf_bytes bs -> le_val bs < 2^(8 * N.of_nat (length bs)).
Proof.
  induction 1 as [|b r Hb Hr IH]; cbn [length le_val]; [cbn; lia|].
  replace (8 * N.of_nat (S (length r))) with (8 + 8 * N.of_nat (length r)) by lia.
  rewrite N.pow_add_r. change (2^8) with 256. lia.
Qed.

Lemma wf_bytes_firstn b : wf_bytes b -> forall n, wf_bytes (firstn n b).
Proof.
  unfold wf_bytes. induction 1 as [|x l Hx Hl IH]; intros [|n]; cbn [firstn]; constructor; [exact Hx|apply IH].
Qed.

Lemma wf_bytes_skipn b : wf_bytes b -> forall n, wf_bytes (skipn n b).
Proof.
  unfold wf_bytes. induction 1 as [|x l Hx Hl IH]; intros [|n]; cbn [skipn]; try constructor; try assumption. apply IH.
Qed.

Lemma wf_bytes_nth b i : wf_bytes b -> nth i b 0 < 256.
Proof.
  intros H. destruct (Nat.lt_ge_cases i (length b)) as [Hi|Hi].
  - exact (proj1 (Forall_nth _ b) H i 0 Hi).
  - rewrite nth_overflow by exact Hi. reflexivity.
Qed.

Lemma le_val_firstn_lt k b : wf_bytes b -> le_val (firstn k b) < 2^(8 * N.of_nat k).
Proof.
  intros H. eapply N.lt_le_trans; [apply le_val_lt, wf_bytes_firstn, H|].
  apply N.pow_le_mono_r; [lia|]. rewrite firstn_length. lia.
Qed.
