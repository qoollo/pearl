(* No false negatives of the two-level filter hierarchy modelled in Hier.v: after any sequence of operations, a child
   that is still present and whose filter, as pushed, says "maybe" for a key is produced by the iterator for that key,
   and the filter kept in its slot still says "maybe".
   The proof goes through an invariant relating the ghost list of pushed filters to the state. The filter operations are
   only required to be sound on `good` (well-formed) filters; `good` must be preserved by merge and offload, and every
   pushed filter must be good. The ops include both the "offload everything" step and the exact
   offload_buffer(needed, level) with its early returns, for every memory measure `mem`: all the invariant needs is that
   each slot is unchanged, off-loaded or vacated, and each node filter unchanged or off-loaded. *)
Require Import Pearl.Base.Prelude Pearl.Filter.Hier.
Local Open Scope nat_scope.

Local Arguments hn_filter {F} _.
Local Arguments hn_leaves {F} _.
Local Arguments Build_hnode {F} _ _.
Local Arguments h_group {F} _.
Local Arguments h_wrapped {F} _.
Local Arguments h_root_filter {F} _.
Local Arguments h_nodes {F} _.
Local Arguments h_children {F} _.
Local Arguments Build_hier {F} _ _ _ _ _.
Local Arguments h_new {F} _.
Local Arguments last_full {F} _.
Local Arguments vacate {F} _ _.
Local Arguments h_remove {F} _ _.
Local Arguments last_some_idx {F} _ _.
Local Arguments h_pop {F} _.
Local Arguments present {F} _ _.
Local Arguments HPush {F} _.
Local Arguments HPop {F}.
Local Arguments HRemove {F} _.
Local Arguments HOffload {F}.
Local Arguments HOffloadN {F} _ _.

Lemma Forall2_Forall_l {A B} (R : A -> B -> Prop) (Q : A -> Prop) l l' :
  (forall x y, R x y -> Q x) -> Forall2 R l l' -> Forall Q l.
Proof. intros HRQ HF. induction HF as [|x0 y0 l l' HR HF IH]; constructor; eauto. Qed.

Lemma Forall_True {A} (l : list A) : Forall (fun _ => True) l.
Proof. apply Forall_forall. intros x _. exact I. Qed.

Lemma upd_last_snoc {A} (l : list A) (x : A) (g : A -> A) : upd_last (l ++ [x]) g = l ++ [g x].
Proof.
  induction l as [|y r IH]; [reflexivity|].
  cbn [app]. destruct (r ++ [x]) as [|z t] eqn:E.
  - destruct r; discriminate E.
  - cbn [upd_last]. rewrite <- IH. reflexivity.
Qed.

Section HierProofs.
Variables (key F : Type).
Variable contains : F -> key -> bool.
Variable merge : F -> F -> option F.
Variable offload : F -> F.
Variable mem : F -> N.       (* memory_allocated of a filter: only steers the early returns of HOffloadN *)

(* well-formedness: merge / offload are only required to be sound on good filters, and must preserve goodness *)
Variable good : F -> Prop.
Hypothesis merge_sound : forall a b c k,
  good a -> good b -> merge a b = Some c -> contains a k = true \/ contains b k = true -> contains c k = true.
Hypothesis merge_good : forall a b c, good a -> good b -> merge a b = Some c -> good c.
Hypothesis offload_sound : forall f k, good f -> contains f k = true -> contains (offload f) k = true.
Hypothesis offload_good : forall f, good f -> good (offload f).

Definition run_h (group : nat) (ops : list (hop F)) : hier F :=
  fold_left (h_step F merge offload mem) ops (h_new group).

(* ghost: the filters the children were pushed with, in push order = child ids *)
Fixpoint pushed (ops : list (hop F)) : list F :=
  match ops with
  | [] => []
  | HPush f :: r => f :: pushed r
  | _ :: r => pushed r
  end.

Definition pushed_of (o : hop F) : list F := match o with HPush f => [f] | _ => [] end.

Lemma pushed_cons o r : pushed (o :: r) = pushed_of o ++ pushed r.
Proof. destruct o; reflexivity. Qed.

(* g answers "maybe" whenever f does *)
Definition covers (g f : F) : Prop := forall k, contains f k = true -> contains g k = true.
(* a node filter: absent = passes everything *)
Definition ocovers (o : option F) (f : F) : Prop := match o with None => True | Some g => covers g f end.

(* an optional filter (node filter, root filter, child slot) is good when present *)
Definition ogood (o : option F) : Prop := match o with None => True | Some g => good g end.
Definition node_good (n : hnode F) : Prop := ogood (hn_filter n).

Definition slot_ok (o : option F) (f : F) : Prop := ogood o /\ ocovers o f.

Definition node_ok (P : list F) (n : hnode F) : Prop :=
  forall c, In c (hn_leaves n) -> exists f, nth_error P c = Some f /\ ocovers (hn_filter n) f.
Definition node_inv (P : list F) (n : hnode F) : Prop := node_good n /\ node_ok P n.

(* the group, the wrapped flag play no part; of the root filter (never consulted by the iterator) only goodness *)
Record HInv (P : list F) (h : hier F) : Prop := {
  inv_slots : Forall2 slot_ok (h_children h) P;
  inv_leaves : concat (map hn_leaves (h_nodes h)) = seq 0 (length P);
  inv_nonempty : h_nodes h <> [];
  inv_nodes : Forall (node_inv P) (h_nodes h);
  inv_root : ogood (h_root_filter h)
}.

Lemma HInv_root P g w r N ch g' w' r' : HInv P (Build_hier g w r N ch) -> ogood r' -> HInv P (Build_hier g' w' r' N ch).
Proof. intros [Hsl Hlv Hne Hnd _] Hr. constructor; assumption. Qed.

(* not wrapped: the single node is the root, and its filter is kept as the root filter *)
Lemma HInv_single_root P g w r N ch g' w' r0 :
  HInv P (Build_hier g w r N ch) -> ogood r0 ->
  HInv P (Build_hier g' w' (match N with [n] => hn_filter n | _ => r0 end) N ch).
Proof.
  intros HI Hr0. apply (HInv_root _ _ _ _ _ _ _ _ _ HI). pose proof (inv_nodes _ _ HI) as Hn. cbn [h_nodes] in Hn.
  destruct N as [|n0 [|n1 t]]; try exact Hr0. inversion Hn as [|? ? [Hg0 _] _]. exact Hg0.
Qed.

Lemma HInv_new group : HInv [] (h_new group).
Proof.
  constructor; cbn.
  - constructor.
  - reflexivity.
  - discriminate.
  - constructor; [|constructor]. split; [exact I|]. intros c [].
  - exact I.
Qed.

(* a stored filter stays, is off-loaded, or (a slot) is vacated *)
Definition ostep (o o' : option F) : Prop := o' = o \/ o' = option_map offload o.
Definition cstep (o o' : option F) : Prop := o' = None \/ ostep o o'.
Definition nstep (n n' : hnode F) : Prop := hn_leaves n = hn_leaves n' /\ ostep (hn_filter n) (hn_filter n').

Lemma ostep_refl o : ostep o o.
Proof. left. reflexivity. Qed.
Lemma nstep_refl n : nstep n n.
Proof. split; [reflexivity | apply ostep_refl]. Qed.

Lemma ostep_some o o' : ostep o o' -> (o' = None <-> o = None).
Proof. intros [->| ->]; [tauto|]. destruct o; cbn; split; intros H; try discriminate H; reflexivity. Qed.

Lemma ogood_offload o : ogood o -> ogood (option_map offload o).
Proof. destruct o as [g|]; [apply offload_good | trivial]. Qed.

Lemma ogood_ostep o o' : ostep o o' -> ogood o -> ogood o'.
Proof. intros [->| ->]; [trivial | apply ogood_offload]. Qed.

Lemma ocovers_ostep o o' f : ostep o o' -> ogood o -> ocovers o f -> ocovers o' f.
Proof.
  intros [->| ->] Hg Hc; [exact Hc|]. destruct o as [g|]; [|exact I].
  intros k Hk. apply offload_sound; [exact Hg | apply Hc, Hk].
Qed.

Lemma slot_ok_cstep o o' f : cstep o o' -> slot_ok o f -> slot_ok o' f.
Proof.
  intros [->|Hs] [Hg Hc]; [split; exact I|].
  split; [exact (ogood_ostep _ _ Hs Hg) | exact (ocovers_ostep _ _ f Hs Hg Hc)].
Qed.

Lemma node_inv_nstep P n n' : nstep n n' -> node_inv P n -> node_inv P n'.
Proof.
  intros [Hl Hs] [Hg Hok]. split; [exact (ogood_ostep _ _ Hs Hg)|].
  intros c Hin. rewrite <- Hl in Hin. destruct (Hok c Hin) as (f & Hp & Hc). exists f. split; [exact Hp|].
  exact (ocovers_ostep _ _ f Hs Hg Hc).
Qed.

Lemma vacate_cstep (l : list (option F)) i : Forall2 cstep l (vacate l i).
Proof.
  revert i; induction l as [|x r IH]; intros [|j]; cbn [vacate]; constructor.
  - left. reflexivity.
  - apply Forall2_diag. intros o. right. apply ostep_refl.
  - right. apply ostep_refl.
  - apply IH.
Qed.

Lemma off_children_ostep nodes lv needed (l : list (option F)) : forall cid freed ps l' fr ps' st,
  off_children F offload mem nodes lv needed l cid freed ps = (l', fr, ps', st) -> Forall2 ostep l l'.
Proof.
  induction l as [|[f|] r IH]; intros cid freed ps l' fr ps' st; cbn [off_children].
  - intros [= <- _ _ _]. constructor.
  - destruct (N.leb needed freed).
    + intros [= <- _ _ _]. apply Forall2_diag, ostep_refl.
    + destruct (off_children F offload mem nodes lv needed r (S cid) (freed + mem f)%N
                  (if lv then add_parent (node_of F nodes cid 0) ps else ps)) as [[[r' fr1] ps1] st1] eqn:E.
      intros [= <- _ _ _]. constructor; [right; reflexivity | eapply IH; exact E].
  - destruct (off_children F offload mem nodes lv needed r (S cid) freed ps) as [[[r' fr1] ps1] st1] eqn:E.
    intros [= <- _ _ _]. constructor; [left; reflexivity | eapply IH; exact E].
Qed.

Lemma off_nodes_nstep needed ps (nodes : list (hnode F)) : forall i freed nodes' fr v st,
  off_nodes F offload mem needed nodes i ps freed = (nodes', fr, v, st) -> Forall2 nstep nodes nodes'.
Proof.
  induction nodes as [|n r IH]; intros i freed nodes' fr v st; cbn [off_nodes].
  - intros [= <- _ _ _]. constructor.
  - destruct (existsb (Nat.eqb i) ps).
    + destruct (N.leb needed freed).
      * intros [= <- _ _ _]. apply Forall2_diag, nstep_refl.
      * destruct (off_nodes F offload mem needed r (S i) ps (freed + omem F mem (hn_filter n))%N)
          as [[[r' fr1] v1] st1] eqn:E.
        intros [= <- _ _ _]. constructor; [split; [|right]; reflexivity | eapply IH; exact E].
    + destruct (off_nodes F offload mem needed r (S i) ps freed) as [[[r' fr1] v1] st1] eqn:E.
      intros [= <- _ _ _]. constructor; [apply nstep_refl | eapply IH; exact E].
Qed.

(* pop / remove, offload-all and offload_buffer(needed, level) are all of this form *)
Lemma HInv_offstep P h : HInv P h -> forall g w' root' nodes' ch',
  Forall2 cstep (h_children h) ch' -> Forall2 nstep (h_nodes h) nodes' -> ogood root' ->
  HInv P (Build_hier g w' root' nodes' ch').
Proof.
  intros [Hsl Hlv Hne Hnd _] g w' root' nodes' ch' Hc2 Hn2 Hroot. constructor; cbn [h_children h_nodes h_root_filter].
  - exact (Forall2_step cstep slot_ok _ _ _ slot_ok_cstep Hc2 Hsl).
  - rewrite <- (Forall2_map_eq nstep hn_leaves hn_leaves _ _ (fun n n' Hs => proj1 Hs) Hn2). exact Hlv.
  - intros Hnil. subst nodes'. inversion Hn2 as [E|]. exact (Hne (eq_sym E)).
  - exact (Forall2_Forall nstep (node_inv P) (node_inv P) _ _ (node_inv_nstep P) Hn2 Hnd).
  - exact Hroot.
Qed.

Lemma HInv_remove P h i : HInv P h -> HInv P (h_remove h i).
Proof.
  intros HI. apply (HInv_offstep P h HI); [apply vacate_cstep | apply Forall2_diag, nstep_refl | apply HI].
Qed.

Lemma HInv_pop P h : HInv P h -> HInv P (h_pop h).
Proof.
  intros HI. unfold h_pop. destruct (last_some_idx (h_children h) 0) as [i|]; [apply HInv_remove|]; exact HI.
Qed.

Lemma HInv_offload P h : HInv P h -> HInv P (h_offload_nodes F offload h).
Proof.
  intros HI. apply (HInv_offstep P h HI); [ | | apply ogood_offload, HI].
  - apply Forall2_map_r. intros o. right. right. reflexivity.
  - apply Forall2_map_r. intros n. split; [|right]; reflexivity.
Qed.

Lemma HInv_offload_n P h needed level : HInv P h -> HInv P (fst (h_offload F offload mem h needed level)).
Proof.
  intros HI. pose proof (HInv_offstep P h HI) as Hstep. pose proof (inv_root _ _ HI) as Hgr.
  pose proof (ogood_offload _ Hgr) as Hgo.
  unfold h_offload.
  destruct (off_children F offload mem (h_nodes h) (1 <=? level) needed (h_children h) 0 0%N [])
    as [[[ch fr1] ps] st1] eqn:Ec.
  pose proof (Forall2_impl _ cstep _ _ (fun o o' Hs => or_intror Hs) (off_children_ostep _ _ _ _ _ _ _ _ _ _ _ Ec)) as Hc2.
  destruct (st1 || (level <? 1)).
  - apply Hstep; [exact Hc2 | apply Forall2_diag, nstep_refl | exact Hgr].
  - destruct (off_nodes F offload mem needed (h_nodes h) 0 ps fr1) as [[[nodes fr2] visited] st2] eqn:En.
    pose proof (off_nodes_nstep _ _ _ _ _ _ _ _ _ En) as Hn2.
    destruct (h_wrapped h).
    + destruct (st2 || negb visited || N.leb needed fr2); apply Hstep; assumption.
    + apply HInv_single_root with (g := h_group h) (w := false) (r := h_root_filter h); [|exact Hgr].
      apply Hstep; assumption.
Qed.

Lemma merge_filters_slot o f :
  ogood o -> good f ->
  ogood (merge_filters F merge o f) /\ ocovers (merge_filters F merge o f) f /\
  forall f', ocovers o f' -> ocovers (merge_filters F merge o f) f'.
Proof.
  intros Hgo Hgf. destruct o as [d|]; cbn [merge_filters]; [|repeat split; exact I].
  destruct (merge d f) as [m|] eqn:Em; cbn; [|repeat split; exact I].
  split; [exact (merge_good d f m Hgo Hgf Em)|]. split.
  - intros k Hk. apply (merge_sound d f m k Hgo Hgf Em). right. exact Hk.
  - intros f' Hc k Hk. apply (merge_sound d f m k Hgo Hgf Em). left. apply Hc, Hk.
Qed.

Lemma node_add_inv P x f :
  good f -> node_inv P x -> node_inv (P ++ [f]) (node_add F merge x (length P) f).
Proof.
  intros Hgf [Hg Hok]. set (o' := hn_filter (node_add F merge x (length P) f)).
  assert (Ho' : ogood o' /\ ocovers o' f /\ forall c f', In c (hn_leaves x) -> ocovers (hn_filter x) f' -> ocovers o' f').
  { subst o'. unfold node_add. cbn [hn_filter]. destruct (hn_leaves x) as [|l0 lr].
    - split; [exact Hgf|]. split; [intros k Hk; exact Hk | intros c f' []].
    - destruct (merge_filters_slot (hn_filter x) f Hg Hgf) as (H1 & H2 & H3). auto. }
  destruct Ho' as (H1 & H2 & H3). split; [exact H1|].
  intros c Hin. cbn [node_add hn_leaves] in Hin. apply in_app_or in Hin. destruct Hin as [Hin | [<- | []]].
  - destruct (Hok c Hin) as (f' & Hp & Hc). exists f'. split; [apply nth_error_app_l, Hp | exact (H3 c f' Hin Hc)].
  - exists f. split; [|exact H2]. rewrite nth_error_app2, Nat.sub_diag by lia. reflexivity.
Qed.

Lemma node_inv_weaken P f n : node_inv P n -> node_inv (P ++ [f]) n.
Proof.
  intros [Hg Hok]. split; [exact Hg|].
  intros c Hin. destruct (Hok c Hin) as (f' & Hp & Hc). exists f'. split; [apply nth_error_app_l, Hp | exact Hc].
Qed.

Lemma HInv_push_last P g w r N ch f :
  good f -> HInv P (Build_hier g w r N ch) ->
  HInv (P ++ [f]) (Build_hier g w r (upd_last N (fun n => node_add F merge n (length P) f)) (ch ++ [Some f])).
Proof.
  intros Hgf [Hsl Hlv Hne Hnd Hr]. cbn [h_children h_nodes h_root_filter] in *.
  destruct (exists_last Hne) as [N0 [x ->]]. rewrite upd_last_snoc.
  apply Forall_app in Hnd. destruct Hnd as [Hnd0 Hndx]. inversion Hndx as [|? ? Hx _]; subst.
  constructor; cbn [h_children h_nodes h_root_filter].
  - apply Forall2_app; [exact Hsl|]. constructor; [|constructor]. split; [exact Hgf | intros k Hk; exact Hk].
  - rewrite map_app, concat_app in *. cbn in *. rewrite app_nil_r in *.
    rewrite app_assoc, Hlv, app_length. cbn [length]. rewrite Nat.add_1_r, seq_S. reflexivity.
  - intros Hnil. exact (app_cons_not_nil _ _ _ (eq_sym Hnil)).
  - apply Forall_app. split; [exact (Forall_impl _ (node_inv_weaken P f) Hnd0)|].
    constructor; [apply node_add_inv; assumption | constructor].
  - exact Hr.
Qed.

Lemma HInv_add_empty_node P g w r N ch :
  HInv P (Build_hier g w r N ch) -> HInv P (Build_hier g w r (N ++ [Build_hnode None []]) ch).
Proof.
  intros [Hsl Hlv Hne Hnd Hr]. cbn [h_children h_nodes h_root_filter] in *. constructor; cbn [h_children h_nodes h_root_filter].
  - exact Hsl.
  - rewrite map_app, concat_app. cbn. rewrite app_nil_r. exact Hlv.
  - intros Hnil. exact (app_cons_not_nil _ _ _ (eq_sym Hnil)).
  - apply Forall_app. split; [exact Hnd|]. constructor; [|constructor]. split; [exact I | intros c []].
  - exact Hr.
Qed.

Lemma HInv_push P h f : good f -> HInv P h -> HInv (P ++ [f]) (h_push F merge h f).
Proof.
  intros Hgf HI. unfold h_push. rewrite (Forall2_len _ _ _ (inv_slots _ _ HI)).
  destruct h as [g w r N ch]. cbn [h_group h_wrapped h_root_filter h_nodes h_children].
  destruct (length P <? g).
  - (* still filling the original root *)
    exact (HInv_single_root _ _ _ _ _ _ _ _ None (HInv_push_last P g w r N ch f Hgf HI) I).
  - set (N1 := if last_full _ then N ++ [Build_hnode None []] else N).
    assert (HI1 : HInv P (Build_hier g w r N1 ch)).
    { subst N1. destruct (last_full _); [apply HInv_add_empty_node|]; exact HI. }
    apply (HInv_root _ _ _ _ _ _ _ _ _ (HInv_push_last P g w r N1 ch f Hgf HI1)).
    apply merge_filters_slot; [exact (inv_root _ _ HI) | exact Hgf].
Qed.

Lemma HInv_step P h o :
  Forall good (pushed_of o) -> HInv P h -> HInv (P ++ pushed_of o) (h_step F merge offload mem h o).
Proof.
  intros Hgo HI. destruct o as [f| |i| |needed level]; cbn [h_step pushed_of] in *; rewrite ?app_nil_r.
  - apply HInv_push; [inversion Hgo; assumption | exact HI].
  - apply HInv_pop; exact HI.
  - apply HInv_remove; exact HI.
  - apply HInv_offload; exact HI.
  - apply HInv_offload_n; exact HI.
Qed.

Lemma HInv_fold ops : forall P h, Forall good (pushed ops) -> HInv P h ->
  HInv (P ++ pushed ops) (fold_left (h_step F merge offload mem) ops h).
Proof.
  induction ops as [|o r IH]; intros P h Hg HI.
  - cbn. rewrite app_nil_r. exact HI.
  - rewrite pushed_cons in Hg. apply Forall_app in Hg. destruct Hg as [Hgo Hgr].
    rewrite pushed_cons, app_assoc. cbn [fold_left]. apply IH; [exact Hgr|]. apply HInv_step; [exact Hgo | exact HI].
Qed.

Theorem HInv_run group ops : Forall good (pushed ops) -> HInv (pushed ops) (run_h group ops).
Proof.
  intros Hg. unfold run_h. change (pushed ops) with ([] ++ pushed ops). apply HInv_fold; [exact Hg | apply HInv_new].
Qed.

Lemma HInv_iter_complete P h c f k :
  HInv P h -> nth_error P c = Some f -> present h c = true -> contains f k = true ->
  In c (iter_possible key F contains h k).
Proof.
  intros HI Hp Hpres Hk.
  assert (Hc : c < length P). { apply nth_error_Some. rewrite Hp. discriminate. }
  assert (Hin : In c (concat (map hn_leaves (h_nodes h)))).
  { rewrite (inv_leaves _ _ HI). apply in_seq. lia. }
  apply in_concat in Hin. destruct Hin as [lv [Hlvin Hcin]].
  apply in_map_iff in Hlvin. destruct Hlvin as [n [<- Hn]].
  unfold iter_possible. apply in_flat_map. exists n. split; [exact Hn|].
  pose proof (inv_nodes _ _ HI) as Hnd. rewrite Forall_forall in Hnd.
  destruct (proj2 (Hnd n Hn) c Hcin) as (f0 & Hp0 & Hcov).
  rewrite Hp in Hp0. injection Hp0 as <-.
  assert (Hpass : node_passes key F contains h n k = true).
  { unfold node_passes. destruct (h_wrapped h); [|reflexivity].
    destruct (hn_filter n) as [g|]; [|reflexivity]. cbn in Hcov. apply Hcov, Hk. }
  rewrite Hpass. apply filter_In. split; assumption.
Qed.

(* check_filter: the children the iterator yields are asked through the filter kept in their slot *)
Definition hier_check (h : hier F) (k : key) : bool :=
  existsb (fun c => match nth_error (h_children h) c with Some (Some g) => contains g k | _ => false end)
          (iter_possible key F contains h k).

Theorem child_complete : forall group ops c f k,
  Forall good (pushed ops) ->
  nth_error (pushed ops) c = Some f -> present (run_h group ops) c = true -> contains f k = true ->
  In c (iter_possible key F contains (run_h group ops) k) /\
  exists g, nth_error (h_children (run_h group ops)) c = Some (Some g) /\ contains g k = true.
Proof.
  intros group ops c f k Hgood Hp Hpres Hk. pose proof (HInv_run group ops Hgood) as HI.
  split; [exact (HInv_iter_complete _ _ c f k HI Hp Hpres Hk)|].
  unfold present in Hpres. destruct (nth_error (h_children (run_h group ops)) c) as [[g|]|] eqn:Eg; try discriminate Hpres.
  exists g. split; [reflexivity|].
  exact (proj2 (Forall2_nth_error _ _ _ _ _ _ (inv_slots _ _ HI) Eg Hp) k Hk).
Qed.

Corollary check_complete : forall group ops c f k,
  Forall good (pushed ops) ->
  nth_error (pushed ops) c = Some f -> present (run_h group ops) c = true -> contains f k = true ->
  In c (iter_possible key F contains (run_h group ops) k) /\ hier_check (run_h group ops) k = true.
Proof.
  intros group ops c f k Hgood Hp Hpres Hk.
  destruct (child_complete group ops c f k Hgood Hp Hpres Hk) as (Hit & g & Eg & Hg). split; [exact Hit|].
  apply existsb_exists. exists c. rewrite Eg. split; [exact Hit | exact Hg].
Qed.

(* 0 < group is not used: the invariant holds for every group size, 0 included *)
Theorem iter_complete : forall group ops c f k,
  0 < group -> Forall good (pushed ops) ->
  nth_error (pushed ops) c = Some f -> present (run_h group ops) c = true -> contains f k = true ->
  In c (iter_possible key F contains (run_h group ops) k).
Proof. intros group ops c f k _ Hgood Hp Hpres Hk. exact (proj1 (child_complete group ops c f k Hgood Hp Hpres Hk)). Qed.

Corollary check_filter_fast_conservative : forall group ops c f k,
  0 < group -> Forall good (pushed ops) ->
  nth_error (pushed ops) c = Some f -> present (run_h group ops) c = true -> contains f k = true ->
  iter_possible key F contains (run_h group ops) k <> [].
Proof.
  intros group ops c f k Hg Hgood Hp Hpres Hk Hnil.
  pose proof (iter_complete group ops c f k Hg Hgood Hp Hpres Hk) as Hin. rewrite Hnil in Hin. destruct Hin.
Qed.

Theorem stored_filters_good : forall group ops,
  Forall good (pushed ops) ->
  Forall ogood (h_children (run_h group ops)) /\ ogood (h_root_filter (run_h group ops)) /\
  Forall node_good (h_nodes (run_h group ops)).
Proof.
  intros group ops Hgood. pose proof (HInv_run group ops Hgood) as HI. split; [|split].
  - exact (Forall2_Forall_l slot_ok ogood _ _ (fun o f Hok => proj1 Hok) (inv_slots _ _ HI)).
  - exact (inv_root _ _ HI).
  - exact (Forall_impl node_good (fun n Hn => proj1 Hn) (inv_nodes _ _ HI)).
Qed.

End HierProofs.

(* About the shape only, so no soundness / goodness assumption on the filter operations is needed: the invariant is
   instantiated with the trivial filter semantics (contains := always "maybe", good := everything). *)
Theorem leaves_exact : forall (F : Type) (merge : F -> F -> option F) (offload : F -> F) (mem : F -> N) group ops,
  concat (map hn_leaves (h_nodes (run_h F merge offload mem group ops))) = seq 0 (length (pushed F ops)) /\
  length (h_children (run_h F merge offload mem group ops)) = length (pushed F ops).
Proof.
  intros F merge offload mem group ops.
  destruct (HInv_run unit F (fun _ _ => true) merge offload mem (fun _ => True)
              (fun _ _ _ _ _ _ _ _ => eq_refl) (fun _ _ _ _ _ _ => I) (fun _ _ _ _ => eq_refl) (fun _ _ => I)
              group ops (Forall_True _)) as [Hsl Hlv _ _ _].
  split; [exact Hlv | exact (Forall2_len _ _ _ Hsl)].
Qed.

Print Assumptions iter_complete.
Print Assumptions check_filter_fast_conservative.
Print Assumptions stored_filters_good.
Print Assumptions leaves_exact.

(* Non-vacuity on a concrete instance: key := nat, F := list nat with membership, merge := append, offload := id,
   mem := length, good := everything; group = 2, five pushes with a pop, a remove, a full offload and two
   offload_buffer(needed, level) steps in between: children 0 and 3 are vacated, the iterator for key 7 yields exactly
   the present child pushed with a filter containing 7 (and whatever shares its node). *)
Module Sanity.
  Definition cont (f : list nat) (k : nat) : bool := existsb (Nat.eqb k) f.
  Definition mrg (a b : list nat) : option (list nat) := Some (a ++ b).
  Definition mm (f : list nat) : N := N.of_nat (length f).
  Definition ops : list (hop (list nat)) :=
    [HPush [1]; HPush [2]; HPush [7]; HRemove 0; HOffloadN 1 0; HPush [4]; HPop; HOffload; HOffloadN 100 1; HPush [5]].
  Example sanity_iter :
    iter_possible nat (list nat) cont (run_h (list nat) mrg id mm 2 ops) 7%nat = [2] /\
    iter_possible nat (list nat) cont (run_h (list nat) mrg id mm 2 ops) 5%nat = [4] /\
    iter_possible nat (list nat) cont (run_h (list nat) mrg id mm 2 ops) 1%nat = [1] /\
    pushed (list nat) ops = [[1]; [2]; [7]; [4]; [5]].
  Proof. vm_compute. repeat split. Qed.

  (* the early returns of offload_buffer: state = children [vacated; [2;3]; [7]], nodes [1;2;3] and [7], root [1;2;3;7].
     level 0 visits only the children and stops as soon as enough was freed; level 1 goes on with the touched nodes
     and then the root, freeing everything (= h_mem). *)
  Definition st3 : hier (list nat) := run_h (list nat) mrg id mm 2 [HPush [1]; HPush [2;3]; HPush [7]; HRemove 0].
  Example sanity_offload_freed :
    snd (h_offload (list nat) id mm st3 1 0) = 2%N /\ snd (h_offload (list nat) id mm st3 3 0) = 3%N /\
    snd (h_offload (list nat) id mm st3 100 0) = 3%N /\ snd (h_offload (list nat) id mm st3 4 1) = 6%N /\
    snd (h_offload (list nat) id mm st3 100 1) = 11%N /\ h_mem (list nat) mm st3 = 11%N.
  Proof. vm_compute. repeat split. Qed.

  (* the section hypotheses are satisfiable: the instance above with good := fun _ => True *)
  Lemma mrg_sound a b c k : True -> True -> mrg a b = Some c -> cont a k = true \/ cont b k = true -> cont c k = true.
  Proof.
    intros _ _ [= <-] H. unfold cont in *. rewrite existsb_app. apply orb_true_iff. exact H.
  Qed.
  Example sanity_iter_complete : forall group os c f k,
    0 < group -> nth_error (pushed (list nat) os) c = Some f ->
    present (run_h (list nat) mrg id mm group os) c = true -> cont f k = true ->
    In c (iter_possible nat (list nat) cont (run_h (list nat) mrg id mm group os) k).
  Proof.
    intros group os c f k Hg Hp Hpres Hk.
    exact (iter_complete nat (list nat) cont mrg id mm (fun _ => True) mrg_sound (fun _ _ _ _ _ _ => I) (fun _ _ _ H => H)
             (fun _ _ => I) group os c f k Hg (Forall_True _) Hp Hpres Hk).
  Qed.
End Sanity.
