(* The hierarchy theorem for filterless ("unknown") children: Filter/CombinedOpt.v is an instance of the abstract filter. *)
Require Import Pearl.Base.Prelude Pearl.Base.LE Pearl.Filter.Bloom Pearl.Filter.BloomProofs Pearl.Filter.Combined
               Pearl.Filter.CombinedProofs Pearl.Filter.Hier Pearl.Filter.HierProofs Pearl.Base.AHash Pearl.Filter.CombinedOpt.

Definition ocf_wf (f : ocf) : Prop := match f with Some c => cf_wf c | None => True end.

Lemma ocf_merge_inv a b c : ocf_merge a b = Some c ->
  exists x y m, a = Some x /\ b = Some y /\ c = Some m /\ cf_merge x y = Some m.
Proof.
  destruct a as [x|], b as [y|]; cbn [ocf_merge]; try discriminate.
  destruct (cf_merge x y) as [m|] eqn:E; cbn [option_map]; [|discriminate].
  intros [= <-]. exists x, y, m. auto.
Qed.

Lemma ocf_merge_sound K a b c k :
  ocf_wf a -> ocf_wf b -> ocf_merge a b = Some c ->
  ocf_contains K a k = true \/ ocf_contains K b k = true -> ocf_contains K c k = true.
Proof.
  intros Ha Hb Hm. apply ocf_merge_inv in Hm. destruct Hm as (x & y & m & -> & -> & -> & E).
  exact (cf_merge_sound _ _ x y m k Ha Hb E).
Qed.

Lemma ocf_merge_wf a b c : ocf_wf a -> ocf_wf b -> ocf_merge a b = Some c -> ocf_wf c.
Proof.
  intros Ha Hb Hm. apply ocf_merge_inv in Hm. destruct Hm as (x & y & m & -> & -> & -> & E).
  exact (cf_merge_wf x y m Ha Hb E).
Qed.

Lemma ocf_offload_sound K f k : ocf_contains K f k = true -> ocf_contains K (ocf_offload f) k = true.
Proof. destruct f as [x|]; cbn; [apply cf_offload_sound | trivial]. Qed.

Lemma ocf_offload_wf f : ocf_wf f -> ocf_wf (ocf_offload f).
Proof. destruct f as [x|]; cbn; [apply cf_offload_wf | trivial]. Qed.

(* after any sequence of push (with or without a filter) / pop / remove / offload: a present child is yielded for every
   key its own filter admits -- a filterless child for EVERY key -- and check_filter answers "maybe" *)
Theorem oh_no_false_negative : forall K group (ops : list (hop ocf)) c f k,
  (0 < group)%nat -> Forall ocf_wf (pushed ocf ops) ->
  nth_error (pushed ocf ops) c = Some f -> present ocf (oh_run group ops) c = true ->
  ocf_contains K f k = true ->
  In c (oh_iter K (oh_run group ops) k) /\ oh_check K (oh_run group ops) k = true.
Proof.
  intros K group ops c f k _.
  exact (check_complete N ocf (ocf_contains K) ocf_merge ocf_offload ocf_mem ocf_wf
           (ocf_merge_sound K) ocf_merge_wf (fun g k' _ => ocf_offload_sound K g k') ocf_offload_wf group ops c f k).
Qed.

Corollary oh_filterless_child_never_hidden : forall K group (ops : list (hop ocf)) c k,
  (0 < group)%nat -> Forall ocf_wf (pushed ocf ops) ->
  nth_error (pushed ocf ops) c = Some None -> present ocf (oh_run group ops) c = true ->
  In c (oh_iter K (oh_run group ops) k).
Proof.
  intros K group ops c k Hg Hwf Hp Hpres.
  (* the filterless child's own answer, ocf_contains K None k, is true by definition *)
  exact (proj1 (oh_no_false_negative K group ops c None k Hg Hwf Hp Hpres eq_refl)).
Qed.

(* non-vacuity: groups of two; the second group holds a child with a filter and a filterless one, so its group filter is
   given up and it is consulted for every key; the first and the third group keep their ranges *)
Example oh_nonvacuous :
  let f1 : ocf := Some (cf_add bloom_hash (ckey_bytes 4) (cf_new None) 5) in
  let f3 : ocf := Some (cf_add bloom_hash (ckey_bytes 4) (cf_new None) 9) in
  let f4 : ocf := Some (cf_add bloom_hash (ckey_bytes 4) (cf_new None) 20) in
  let h := oh_run 2 [HPush ocf f1; HPush ocf f3; HPush ocf f4; HPush ocf None; HPush ocf f1] in
  oh_iter 4 h 5 = [0; 1; 2; 3; 4]%nat /\ oh_iter 4 h 20 = [2; 3]%nat /\ oh_iter 4 h 7 = [0; 1; 2; 3]%nat /\
  oh_check 4 h 30 = true.
Proof. vm_compute. repeat split; reflexivity. Qed.

Print Assumptions oh_no_false_negative.
Print Assumptions oh_filterless_child_never_hidden.
