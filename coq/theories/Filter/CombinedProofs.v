(* The combined filter (optional Bloom + key range) of Combined.v satisfies the hypotheses of HierProofs.v, for every
   hash family and key encoding: well-formedness `cf_wf` is preserved by new / add / merge / offload, an added key is
   never answered NotContains, merge answers "maybe" whenever one of its (well-formed) arguments does, offload only
   turns answers into "maybe"; hence the hierarchy over combined filters never hides a present child. *)
Require Import Pearl.Base.Prelude Pearl.Base.LE Pearl.Filter.Bloom Pearl.Filter.BloomProofs Pearl.Index.Bytes
               Pearl.Filter.Combined Pearl.Filter.Hier Pearl.Filter.HierProofs Pearl.Base.AHash Pearl.Blob.Bytes.

Section Maybe.
Context {key : Type}.
Variable hash : N -> key -> N.

Lemma fold_add_wf ks : forall b, bloom_wf b -> bloom_wf (fold_left (bloom_add hash) ks b).
Proof. apply fold_left_inv. intros b k. apply bloom_add_wf. Qed.
End Maybe.

Lemma range_contains_iff r k :
  range_contains r k = true <-> rg_init r = true /\ rg_min r <= k /\ k <= rg_max r.
Proof.
  unfold range_contains. rewrite !andb_true_iff, !N.leb_le. tauto.
Qed.

(* RangeFilter invariant: an initialised range is non-empty. NEEDED: without it `range_add` may leave the added key
   outside (see range_add_needs_wf below: {min 5, max 2} + 3 = {min 3, max 2}). *)
Definition range_wf (r : range) : Prop := rg_init r = true -> rg_min r <= rg_max r.

Lemma range_empty_wf : range_wf range_empty.
Proof. intros H. discriminate H. Qed.

Lemma range_add_spec r k : range_wf r ->
  rg_init (range_add r k) = true /\
  rg_min (range_add r k) = (if rg_init r then N.min (rg_min r) k else k) /\
  rg_max (range_add r k) = (if rg_init r then N.max (rg_max r) k else k).
Proof.
  unfold range_wf, range_add. destruct r as [mn mx [|]]; cbn [rg_init rg_min rg_max negb]; intros Hwf; [|auto].
  specialize (Hwf eq_refl).
  destruct (N.ltb_spec k mn); [|destruct (N.ltb_spec mx k)]; cbn [rg_init rg_min rg_max]; repeat split; lia.
Qed.

Lemma range_merge_spec a b :
  range_merge a b =
  if rg_init b then
    if rg_init a then {| rg_min := N.min (rg_min a) (rg_min b); rg_max := N.max (rg_max a) (rg_max b); rg_init := true |}
    else b
  else a.
Proof.
  unfold range_merge. destruct (rg_init b); [|reflexivity]. destruct (rg_init a); cbn [negb]; [|reflexivity].
  f_equal.
  - destruct (N.ltb_spec (rg_min b) (rg_min a)); lia.
  - destruct (N.ltb_spec (rg_max a) (rg_max b)); lia.
Qed.

Lemma range_add_wf r k : range_wf r -> range_wf (range_add r k).
Proof.
  intros Hwf _. destruct (range_add_spec r k Hwf) as (_ & -> & ->).
  unfold range_wf in Hwf. destruct (rg_init r); [specialize (Hwf eq_refl)|]; lia.
Qed.

Lemma range_merge_wf a b : range_wf a -> range_wf b -> range_wf (range_merge a b).
Proof.
  unfold range_wf. rewrite range_merge_spec. intros Ha Hb.
  destruct (rg_init b) eqn:Eb; [specialize (Hb eq_refl) | exact Ha].
  destruct (rg_init a) eqn:Ea; [specialize (Ha eq_refl) | intros _; exact Hb].
  cbn [rg_init rg_min rg_max]. lia.
Qed.

Lemma range_add_self r k : range_wf r -> range_contains (range_add r k) k = true.
Proof.
  intros Hwf. apply range_contains_iff. destruct (range_add_spec r k Hwf) as (-> & -> & ->).
  destruct (rg_init r); lia.
Qed.

Example range_add_needs_wf :
  range_contains (range_add {| rg_min := 5; rg_max := 2; rg_init := true |} 3) 3 = false.
Proof. reflexivity. Qed.

Lemma range_add_mono r k k' : range_contains r k = true -> range_contains (range_add r k') k = true.
Proof.
  rewrite !range_contains_iff. intros (Hi & Hmn & Hmx).
  destruct (range_add_spec r k') as (-> & -> & ->); [intros _; lia|]. rewrite Hi. lia.
Qed.

Lemma range_merge_sound a b k :
  range_contains a k = true \/ range_contains b k = true -> range_contains (range_merge a b) k = true.
Proof.
  rewrite !range_contains_iff, range_merge_spec. intros [(Hi & Hmn & Hmx)|(Hi & Hmn & Hmx)]; rewrite Hi.
  - destruct (rg_init b); cbn [rg_init rg_min rg_max]; [split; [reflexivity | lia] | auto].
  - destruct (rg_init a); cbn [rg_init rg_min rg_max]; [split; [reflexivity | lia] | auto].
Qed.

Lemma fold_range_add_wf ks : forall r, range_wf r -> range_wf (fold_left range_add ks r).
Proof. apply fold_left_inv. intros r k. apply range_add_wf. Qed.

Section CombinedProofs.
Variable hash : N -> bytes -> N.
Variable kbytes : N -> bytes.

(* well-formed combined filter: the bloom (if any) is well formed AND the range is (initialised => min <= max).
   The range half is necessary for cf_add_contains: see cf_add_contains_needs_range_wf at the end of the section. *)
Definition cf_bloom_wf (f : combined) : Prop := match cf_bloom f with Some b => bloom_wf b | None => True end.
Definition cf_wf (f : combined) : Prop := cf_bloom_wf f /\ range_wf (cf_range f).

(* the bloom half of cf_contains, propositionally *)
Definition cf_bloom_maybe (f : combined) (k : N) : Prop :=
  match cf_bloom f with Some b => all_set hash b (kbytes k) | None => True end.

Lemma cf_contains_iff f k :
  cf_contains hash kbytes f k = true <-> range_contains (cf_range f) k = true /\ cf_bloom_maybe f k.
Proof.
  unfold cf_contains, cf_bloom_maybe. rewrite andb_true_iff. destruct (cf_bloom f) as [b|]; [|tauto].
  rewrite <- fast_all_set. destruct (bloom_contains_fast hash b (kbytes k)); split; intros [H1 H2]; split; auto; discriminate.
Qed.

Lemma cf_new_wf bits hashers cfg : bits < 2^64 -> cf_wf (cf_new (Some (bloom_new bits hashers cfg))).
Proof. intros Hb. split; [apply bloom_new_wf, Hb | apply range_empty_wf]. Qed.

Lemma cf_new_none_wf : cf_wf (cf_new None).
Proof. split; [exact I | apply range_empty_wf]. Qed.

Lemma cf_add_wf f k : cf_wf f -> cf_wf (cf_add hash kbytes f k).
Proof.
  intros [Hb Hr]. split; [|apply range_add_wf, Hr]. revert Hb.
  unfold cf_bloom_wf, cf_add. cbn [cf_bloom]. destruct (cf_bloom f) as [b|]; cbn [option_map]; [apply bloom_add_wf | auto].
Qed.

Lemma cf_fold_add_wf ks : forall f, cf_wf f -> cf_wf (fold_left (cf_add hash kbytes) ks f).
Proof. apply fold_left_inv. intros f k. apply cf_add_wf. Qed.

Lemma cf_merge_inv a b c : cf_merge a b = Some c ->
  cf_range c = range_merge (cf_range a) (cf_range b) /\
  ((exists x y m, cf_bloom a = Some x /\ cf_bloom b = Some y /\ bloom_merge x y = Some m /\ cf_bloom c = Some m) \/
   (cf_bloom a = None /\ cf_bloom b = None /\ cf_bloom c = None)).
Proof.
  unfold cf_merge. destruct (cf_bloom a) as [x|]; destruct (cf_bloom b) as [y|]; try discriminate.
  - destruct (bloom_merge x y) as [m|] eqn:Em; [|discriminate]. intros [= <-].
    split; [reflexivity|]. left. exists x, y, m. auto.
  - intros [= <-]. split; [reflexivity|]. right. auto.
Qed.

Lemma cf_merge_wf a b c : cf_wf a -> cf_wf b -> cf_merge a b = Some c -> cf_wf c.
Proof.
  unfold cf_wf, cf_bloom_wf. intros [Hx Hra] [_ Hrb] Hm. apply cf_merge_inv in Hm.
  destruct Hm as [-> [(x & y & m & Ea & _ & Em & ->) | (_ & _ & ->)]].
  - rewrite Ea in Hx. split; [exact (bloom_merge_wf x y m Hx Em) | apply range_merge_wf; assumption].
  - split; [exact I | apply range_merge_wf; assumption].
Qed.

Lemma cf_offload_wf f : cf_wf f -> cf_wf (cf_offload f).
Proof.
  intros [Hb Hr]. split; [|exact Hr]. revert Hb.
  unfold cf_bloom_wf, cf_offload. cbn [cf_bloom]. destruct (cf_bloom f) as [b|]; cbn [option_map]; [apply bloom_offload_wf | auto].
Qed.

Lemma cf_add_self f k : cf_wf f -> cf_contains hash kbytes (cf_add hash kbytes f k) k = true.
Proof.
  intros [Hb Hr]. apply cf_contains_iff. split; [apply range_add_self, Hr|]. revert Hb.
  unfold cf_bloom_maybe, cf_bloom_wf, cf_add. cbn [cf_bloom].
  destruct (cf_bloom f) as [b|]; cbn [option_map]; [apply bloom_add_sets | auto].
Qed.

Lemma cf_add_keeps f k k' :
  cf_contains hash kbytes f k = true -> cf_contains hash kbytes (cf_add hash kbytes f k') k = true.
Proof.
  rewrite !cf_contains_iff. intros [Hr Hb]. split; [apply range_add_mono, Hr|]. revert Hb.
  unfold cf_bloom_maybe, cf_add. cbn [cf_bloom].
  destruct (cf_bloom f) as [b|]; cbn [option_map]; [apply bloom_add_preserves | auto].
Qed.

Theorem cf_add_contains f ks k :
  cf_wf f -> In k ks -> cf_contains hash kbytes (fold_left (cf_add hash kbytes) ks f) k = true.
Proof.
  apply (fold_left_added (cf_add hash kbytes) cf_wf (fun f k => cf_contains hash kbytes f k = true)).
  - intros g k0. apply cf_add_wf.
  - intros g k0. apply cf_add_self.
  - intros g k0 k'. apply cf_add_keeps.
Qed.

Theorem cf_merge_sound a b c k :
  cf_wf a -> cf_wf b -> cf_merge a b = Some c ->
  cf_contains hash kbytes a k = true \/ cf_contains hash kbytes b k = true -> cf_contains hash kbytes c k = true.
Proof.
  unfold cf_wf, cf_bloom_wf. intros [Hwa _] [Hwb _] Hm Hor. rewrite !cf_contains_iff in *. unfold cf_bloom_maybe in *.
  apply cf_merge_inv in Hm. destruct Hm as [-> Hm]. split.
  - apply range_merge_sound. tauto.
  - destruct Hm as [(x & y & m & Ea & Eb & Em & ->) | (_ & _ & ->)]; [|exact I].
    rewrite Ea, Eb in *. apply (bloom_merge_all_set hash x y m (kbytes k) Hwa Hwb Em). tauto.
Qed.

Theorem cf_offload_sound f k : cf_contains hash kbytes f k = true -> cf_contains hash kbytes (cf_offload f) k = true.
Proof.
  rewrite !cf_contains_iff. intros [Hr _]. split; [exact Hr|].
  unfold cf_bloom_maybe, cf_offload. cbn [cf_bloom]. destruct (cf_bloom f) as [b|]; cbn [option_map]; exact I.
Qed.

(* the range half of cf_wf cannot be dropped: a bloom-less filter with an inverted range loses the key it is given *)
Example cf_add_contains_needs_range_wf :
  let f := {| cf_bloom := None; cf_range := {| rg_min := 5; rg_max := 2; rg_init := true |} |} in
  cf_bloom_wf f /\ In 3 [3] /\ cf_contains hash kbytes (fold_left (cf_add hash kbytes) [3] f) 3 = false.
Proof. cbn zeta. split; [exact I|]. split; [left; reflexivity | reflexivity]. Qed.

(* `mem` (memory_allocated of a filter) only steers the early returns of offload_buffer(needed, level): arbitrary *)
Variable mem : combined -> N.

Definition cf_run (group : nat) (ops : list (hop combined)) : hier combined :=
  run_h combined cf_merge cf_offload mem group ops.

(* the combined filter meets the hypotheses of the hierarchy theorems *)
Lemma cf_child_complete : forall group (ops : list (hop combined)) c f k,
  Forall cf_wf (pushed combined ops) ->
  nth_error (pushed combined ops) c = Some f -> present combined (cf_run group ops) c = true ->
  cf_contains hash kbytes f k = true ->
  In c (iter_possible N combined (cf_contains hash kbytes) (cf_run group ops) k) /\
  exists g, nth_error (h_children combined (cf_run group ops)) c = Some (Some g) /\ cf_contains hash kbytes g k = true.
Proof.
  exact (child_complete N combined (cf_contains hash kbytes) cf_merge cf_offload mem cf_wf
           cf_merge_sound cf_merge_wf (fun g k _ => cf_offload_sound g k) cf_offload_wf).
Qed.

End CombinedProofs.

Print Assumptions cf_new_wf.
Print Assumptions cf_add_wf.
Print Assumptions cf_merge_wf.
Print Assumptions cf_offload_wf.
Print Assumptions cf_add_contains.
Print Assumptions cf_merge_sound.
Print Assumptions cf_offload_sound.

(* the instance Storage/Filtered.v maintains alongside the storage model (bloom_hash = the aHash fallback model,
   keys = big-endian K bytes); ch_iter and ch_check of Combined.v unfold to iter_possible and hier_check of it *)
Definition ch_run (K : N) (group : nat) (ops : list (hop combined)) : chier := fold_left (ch_step K) ops (ch_new group).

Lemma ch_run_eq K group ops : ch_run K group ops = cf_run cf_mem group ops.
Proof. reflexivity. Qed.

(* both the iterator (check_filter_fast, read paths) and the asynchronous check_filter are conservative *)
Theorem ch_no_false_negative : forall K group (ops : list (hop combined)) c f0 ks k,
  (0 < group)%nat -> Forall cf_wf (pushed combined ops) ->
  nth_error (pushed combined ops) c = Some (fold_left (cf_add bloom_hash (ckey_bytes K)) ks f0) ->
  cf_wf f0 -> In k ks -> present combined (ch_run K group ops) c = true ->
  In c (ch_iter K (ch_run K group ops) k) /\ ch_check K (ch_run K group ops) k = true.
Proof.
  intros K group ops c f0 ks k _ Hwf Hp Hwf0 Hin Hpres.
  exact (check_complete N combined (cf_contains bloom_hash (ckey_bytes K)) cf_merge cf_offload cf_mem cf_wf
           (cf_merge_sound _ _) cf_merge_wf (fun g k' _ => cf_offload_sound _ _ g k') cf_offload_wf
           group ops c _ k Hwf Hp Hpres (cf_add_contains _ _ f0 ks k Hwf0 Hin)).
Qed.

(* non-vacuity: three children of 100-bit blooms, a removal and a bounded offload *)
Example ch_nonvacuous :
  let f0 := cf_new (Some (bloom_new 100 2 (repeat 0 40))) in
  let mk ks := fold_left (cf_add bloom_hash (ckey_bytes 4)) ks f0 in
  let ops := [HPush _ (mk [1; 7]); HPush _ (mk [9]); HPush _ (mk [7; 300]); HRemove _ 0; HOffloadN _ 16 1] in
  ch_iter 4 (ch_run 4 2 ops) 7 = [1; 2]%nat /\ ch_iter 4 (ch_run 4 2 ops) 300 = [2]%nat /\ ch_iter 4 (ch_run 4 2 ops) 5 = [] /\
  ch_check 4 (ch_run 4 2 ops) 300 = true.
Proof. vm_compute. repeat split. Qed.

Print Assumptions ch_no_false_negative.
