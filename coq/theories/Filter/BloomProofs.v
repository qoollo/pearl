(* The bit vector and the Bloom filter of Bloom.v: an added key is never answered NotContains (for every hash family),
   merge and off-load keep that; and the probe of the serialised filter in a file reads the same bits as the probe in
   memory, through the bincode layout and the bit arithmetic translated from the Rust source. *)
Require Import Pearl.Base.Prelude Pearl.Base.LE Pearl.Base.LEProofs Pearl.Generated.Pure Pearl.Filter.Bloom.

(* offset_and_mask, offset_and_mask_u8, get_bit_u8 and items_count are translated from the Rust source
   (Generated/Pure.v); what they compute, in arithmetic *)
Lemma offset_and_mask_spec i : offset_and_mask i = (i / 64, 2^(i mod 64)).
Proof.
  unfold offset_and_mask. rewrite N.shiftl_1_l. f_equal.
  apply N.mod_small. apply N.pow_lt_mono_r; [lia|]. apply N.mod_lt; lia.
Qed.

Lemma offset_and_mask_u8_spec i : offset_and_mask_u8 i = (i / 8, 2^(i mod 8)).
Proof.
  unfold offset_and_mask_u8. rewrite N.shiftl_1_l, N.shiftr_div_pow2. change (2^3) with 8. f_equal.
  apply N.mod_small. apply N.pow_lt_mono_r; [lia|]. apply N.mod_lt; lia.
Qed.

Lemma land_pow2_testbit w n : negb (N.land w (2^n) =? 0) = N.testbit w n.
Proof.
  destruct (N.testbit w n) eqn:E.
  - apply negb_true_iff, N.eqb_neq. intros H. apply (f_equal (fun x => N.testbit x n)) in H.
    rewrite N.land_spec, E, N.pow2_bits_true in H. discriminate.
  - apply negb_false_iff, N.eqb_eq. apply N.bits_inj. intros m.
    rewrite N.land_spec, N.bits_0, N.pow2_bits_eqb.
    destruct (N.eqb_spec n m) as [->|]; [rewrite E; reflexivity|apply andb_false_r].
Qed.

Lemma get_bit_u8_spec b i : get_bit_u8 b (2^i) = N.testbit b i.
Proof. unfold get_bit_u8. apply land_pow2_testbit. Qed.

Lemma items_count_spec bits : bits < 2^64 ->
  items_count bits = if 0 <? bits then (bits - 1) / 64 + 1 else 0.
Proof.
  intros H. unfold items_count. destruct (N.ltb_spec 0 bits) as [Hp|]; [|reflexivity].
  replace ((bits + 2^64 - 1) mod 2^64) with (bits - 1).
  - apply N.mod_small. assert ((bits - 1) / 64 <= bits - 1) by (apply N.div_le_upper_bound; lia). lia.
  - replace (bits + 2^64 - 1) with ((bits - 1) + 1 * 2^64) by lia.
    rewrite N.mod_add by lia. symmetry; apply N.mod_small; lia.
Qed.

Lemma items_count_covers bits i : bits < 2^64 -> i < bits -> i / 64 < items_count bits.
Proof.
  intros Hb Hi. rewrite items_count_spec by assumption.
  destruct (N.ltb_spec 0 bits); [|lia].
  assert (i / 64 <= (bits - 1) / 64) by (apply N.div_le_mono; lia). lia.
Qed.

Lemma updN_length {A} (l : list A) i f : length (updN l i f) = length l.
Proof. revert i; induction l as [|x r IH]; intros [|j]; cbn; auto. Qed.

Lemma nth_updN_same {A} (l : list A) i f d : (i < length l)%nat -> nth i (updN l i f) d = f (nth i l d).
Proof. revert i; induction l as [|x r IH]; intros [|j] H; cbn in *; try lia; auto. apply IH; lia. Qed.

Lemma nth_updN_other {A} (l : list A) i j f d : i <> j -> nth j (updN l i f) d = nth j l d.
Proof. revert i j; induction l as [|x r IH]; intros [|i] [|j] H; cbn; auto; try congruence. Qed.

Definition bv_wf (v : bitvec) : Prop :=
  bv_bits v < 2^64 /\ length (bv_words v) = N.to_nat (items_count (bv_bits v)).

Lemma bv_get_spec v i : bv_get v i = N.testbit (nthN (bv_words v) (i / 64)) (i mod 64).
Proof. unfold bv_get. rewrite offset_and_mask_spec. apply land_pow2_testbit. Qed.

Lemma bv_set_words v i :
  bv_words (bv_set v i) = updN (bv_words v) (N.to_nat (i / 64)) (fun w => N.lor w (2 ^ (i mod 64))).
Proof. unfold bv_set. rewrite offset_and_mask_spec. reflexivity. Qed.

Lemma bv_set_bits v i : bv_bits (bv_set v i) = bv_bits v.
Proof. unfold bv_set. rewrite offset_and_mask_spec. reflexivity. Qed.

Lemma bv_new_wf bits : bits < 2^64 -> bv_wf (bv_new bits).
Proof. intros H; split; cbn; [assumption|apply repeat_length]. Qed.

Lemma bv_set_wf v i : bv_wf v -> bv_wf (bv_set v i).
Proof. intros [H1 H2]. split; rewrite ?bv_set_words, ?updN_length, bv_set_bits; assumption. Qed.

Lemma bv_get_set_same v i : bv_wf v -> i < bv_bits v -> bv_get (bv_set v i) i = true.
Proof.
  intros [Hb Hl] Hi. rewrite bv_get_spec, bv_set_words. unfold nthN. rewrite nth_updN_same.
  - rewrite N.lor_spec, N.pow2_bits_true. apply orb_true_r.
  - rewrite Hl. pose proof (items_count_covers _ _ Hb Hi). lia.
Qed.

Lemma bv_get_set_mono v j i : bv_get v i = true -> bv_get (bv_set v j) i = true.
Proof.
  rewrite !bv_get_spec, bv_set_words. unfold nthN.
  intros H. destruct (Nat.eq_dec (N.to_nat (j / 64)) (N.to_nat (i / 64))) as [E|E].
  - rewrite E. destruct (Nat.lt_ge_cases (N.to_nat (i / 64)) (length (bv_words v))) as [Hl|Hl].
    + rewrite nth_updN_same by assumption. rewrite N.lor_spec, H. reflexivity.
    + rewrite nth_overflow in H by assumption. rewrite N.bits_0 in H. discriminate.
  - rewrite nth_updN_other by assumption. exact H.
Qed.

Lemma or_words_length a b : length (or_words a b) = length a.
Proof.
  revert b; induction a as [|x a IH]; intros [|y b]; cbn [or_words length]; try reflexivity.
  rewrite IH. reflexivity.
Qed.

Lemma or_words_nth a b : length a = length b ->
  forall i, nth i (or_words a b) 0 = N.lor (nth i a 0) (nth i b 0).
Proof.
  revert a b. refine (list_ind2 _ _ _).
  - intros [|i]; reflexivity.
  - intros x y a b _ IH [|i]; cbn; [reflexivity | apply IH].
Qed.

Lemma bv_or_inv a b v : bv_or a b = Some v ->
  bv_bits a = bv_bits b /\ v = {| bv_words := or_words (bv_words a) (bv_words b); bv_bits := bv_bits a |}.
Proof.
  unfold bv_or. destruct (N.eqb_spec (bv_bits a) (bv_bits b)) as [E|]; [|discriminate].
  intros [= <-]. split; [exact E | reflexivity].
Qed.

Lemma bv_or_wf a b v : bv_wf a -> bv_or a b = Some v -> bv_wf v.
Proof.
  intros [Ha1 Ha2] Hor. apply bv_or_inv in Hor. destruct Hor as [_ ->]. split; cbn [bv_bits bv_words].
  - exact Ha1.
  - rewrite or_words_length. exact Ha2.
Qed.

Lemma bv_or_get a b v i : bv_wf a -> bv_wf b -> bv_or a b = Some v ->
  bv_get v i = bv_get a i || bv_get b i.
Proof.
  intros [Ha1 Ha2] [Hb1 Hb2] Hor. apply bv_or_inv in Hor. destruct Hor as [E ->].
  rewrite !bv_get_spec. cbn [bv_words]. unfold nthN.
  rewrite or_words_nth by congruence. apply N.lor_spec.
Qed.

Lemma fold_set_wf ids v (f : N -> N) : bv_wf v -> bv_wf (fold_left (fun v i => bv_set v (f i)) ids v).
Proof. apply fold_left_inv. intros a i. apply bv_set_wf. Qed.

Lemma fold_set_bits ids v (f : N -> N) : bv_bits (fold_left (fun v i => bv_set v (f i)) ids v) = bv_bits v.
Proof.
  apply (fold_left_inv _ (fun v' => bv_bits v' = bv_bits v)); [|reflexivity].
  intros a i Ha. rewrite bv_set_bits. exact Ha.
Qed.

Lemma fold_set_mono ids v (f : N -> N) j : bv_get v j = true ->
  bv_get (fold_left (fun v i => bv_set v (f i)) ids v) j = true.
Proof. apply (fold_left_inv _ (fun v => bv_get v j = true)). intros a i. apply bv_get_set_mono. Qed.

Lemma fold_set_sets ids v (f : N -> N) i : bv_wf v -> In i ids -> f i < bv_bits v ->
  bv_get (fold_left (fun v i => bv_set v (f i)) ids v) (f i) = true.
Proof.
  revert v; induction ids as [|j r IH]; intros v Hwf Hin Hlt; [contradiction|]. cbn [fold_left].
  destruct Hin as [->|Hin].
  - apply fold_set_mono, bv_get_set_same; assumption.
  - apply IH; [apply bv_set_wf; assumption|assumption|rewrite bv_set_bits; assumption].
Qed.

(* an element that was added is still there at the end of the fold: `add` keeps `wf`, puts its element in,
   and never takes one out *)
Lemma fold_left_added {S K} (add : S -> K -> S) (wf : S -> Prop) (has : S -> K -> Prop) :
  (forall s k, wf s -> wf (add s k)) ->
  (forall s k, wf s -> has (add s k) k) ->
  (forall s k k', has s k -> has (add s k') k) ->
  forall ks s k, wf s -> In k ks -> has (fold_left add ks s) k.
Proof.
  intros Hwf Hself Hmono.
  induction ks as [|k' r IH]; intros s k Hs Hin; [destruct Hin|].
  cbn [fold_left]. destruct Hin as [->|Hin].
  - apply (fold_left_inv add (fun s => has s k)); [intros a b; apply Hmono | apply Hself, Hs].
  - apply IH; [apply Hwf, Hs | exact Hin].
Qed.

Section Hash.
Context {key : Type}.
Variable hash : N -> key -> N.

Definition bloom_wf (b : bloom) : Prop :=
  match bl_inner b with Some v => bv_wf v /\ bv_bits v = bl_bits b | None => bl_bits b < 2^64 end.

Definition bits_set (v : bitvec) (ids : list N) (k : key) : Prop :=
  forall i, In i ids -> bv_get v (hash i k mod bv_bits v) = true.

(* what the three ways of asking have in common: every probed bit is set (or there is nothing to probe) *)
Definition all_set (b : bloom) (k : key) : Prop :=
  match bl_inner b with
  | Some v => bv_bits v = 0 \/ bits_set v (hasher_ids b) k
  | None => True
  end.

Definition mem_maybe (b : bloom) (k : key) : Prop :=
  bloom_contains_in_memory hash b k <> Some NotContains.

Lemma mem_maybe_iff b k : mem_maybe b k <-> all_set b k.
Proof.
  unfold all_set, mem_maybe, bloom_contains_in_memory. destruct (bl_inner b) as [v|]; [|split; [trivial | discriminate]].
  destruct (N.eqb_spec (bv_bits v) 0) as [H0|H0]; [split; [auto | discriminate]|].
  destruct (forallb (fun i => bv_get v (hash i k mod bv_bits v)) (hasher_ids b)) eqn:Ef.
  - rewrite forallb_forall in Ef. split; [right; exact Ef | discriminate].
  - split; [intros Hc; exfalso; apply Hc; reflexivity|]. intros [H|Hs]; [contradiction|].
    apply forallb_forall in Hs. congruence.
Qed.

Lemma fast_all_set b k : bloom_contains_fast hash b k = NeedAdditionalCheck <-> all_set b k.
Proof.
  rewrite <- mem_maybe_iff. unfold mem_maybe, bloom_contains_fast.
  destruct (bloom_contains_in_memory hash b k) as [[|]|]; split; congruence.
Qed.

Lemma bloom_add_spec b k :
  bloom_add hash b k =
  {| bl_inner := option_map (fun v => if bv_bits v =? 0 then v
                   else fold_left (fun v' i => bv_set v' (hash i k mod bv_bits v)) (hasher_ids b) v) (bl_inner b);
     bl_bits := bl_bits b; bl_hashers := bl_hashers b; bl_cfg := bl_cfg b |}.
Proof.
  unfold bloom_add. destruct b as [[v|] bits h c]; cbn [bl_inner option_map]; [destruct (bv_bits v =? 0)|]; reflexivity.
Qed.

Lemma bloom_add_wf b k : bloom_wf b -> bloom_wf (bloom_add hash b k).
Proof.
  unfold bloom_wf. rewrite bloom_add_spec. cbn [bl_inner bl_bits].
  destruct (bl_inner b) as [v|]; cbn [option_map]; [|trivial].
  destruct (bv_bits v =? 0); [trivial|].
  intros [Hwf Hb]. split; [apply fold_set_wf, Hwf | rewrite fold_set_bits; exact Hb].
Qed.

Lemma bloom_add_sets b k : bloom_wf b -> all_set (bloom_add hash b k) k.
Proof.
  unfold bloom_wf, all_set, hasher_ids. rewrite bloom_add_spec. cbn [bl_inner bl_hashers].
  destruct (bl_inner b) as [v|]; cbn [option_map]; [|trivial].
  intros [Hwf _]. destruct (N.eqb_spec (bv_bits v) 0) as [H0|H0]; [left; exact H0|].
  right. intros i Hi. rewrite fold_set_bits.
  apply (fold_set_sets (hasher_ids b) v (fun i => hash i k mod bv_bits v) i Hwf Hi).
  apply N.mod_lt. exact H0.
Qed.

Lemma bloom_add_preserves b k k' : all_set b k -> all_set (bloom_add hash b k') k.
Proof.
  unfold all_set, hasher_ids. rewrite bloom_add_spec. cbn [bl_inner bl_hashers].
  destruct (bl_inner b) as [v|]; cbn [option_map]; [|trivial].
  destruct (N.eqb_spec (bv_bits v) 0) as [H0|H0]; [trivial|].
  intros [H|H]; [contradiction|]. right. intros i Hi. rewrite fold_set_bits.
  apply (fold_set_mono _ _ (fun i => hash i k' mod bv_bits v)), H, Hi.
Qed.

Lemma fold_add_all_set b ks k : bloom_wf b -> In k ks -> all_set (fold_left (bloom_add hash) ks b) k.
Proof.
  apply (fold_left_added (bloom_add hash) bloom_wf all_set);
    [apply bloom_add_wf | apply bloom_add_sets | apply bloom_add_preserves].
Qed.

Theorem bloom_no_false_negative b ks k :
  bloom_wf b -> In k ks -> mem_maybe (fold_left (bloom_add hash) ks b) k.
Proof. intros Hwf Hin. apply mem_maybe_iff, fold_add_all_set; assumption. Qed.

(* contains_fast, used by the hierarchy and check_filter_fast, is conservative *)
Corollary bloom_fast_no_false_negative b ks k :
  bloom_wf b -> In k ks -> bloom_contains_fast hash (fold_left (bloom_add hash) ks b) k = NeedAdditionalCheck.
Proof. intros Hwf Hin. apply fast_all_set, fold_add_all_set; assumption. Qed.

Lemma bloom_new_wf bits hashers cfg : bits < 2^64 -> bloom_wf (bloom_new bits hashers cfg).
Proof. intros Hb. unfold bloom_wf, bloom_new. cbn. split; [apply bv_new_wf; exact Hb | reflexivity]. Qed.

Lemma bloom_offload_wf b : bloom_wf b -> bloom_wf (bloom_offload b).
Proof.
  unfold bloom_wf, bloom_offload. cbn. destruct (bl_inner b) as [v|]; [|auto].
  intros [[Hlt _] Hb]. rewrite <- Hb. exact Hlt.
Qed.

(* Bloom::checked_add_assign succeeds only on two in-memory filters with the same hashers and bit count *)
Lemma bloom_merge_inv a b m : bloom_merge a b = Some m ->
  exists va vb v, bl_inner a = Some va /\ bl_inner b = Some vb /\ bl_hashers a = bl_hashers b /\ bv_or va vb = Some v /\
                  m = {| bl_inner := Some v; bl_bits := bl_bits a; bl_hashers := bl_hashers a; bl_cfg := bl_cfg a |}.
Proof.
  unfold bloom_merge. destruct (N.eqb_spec (bl_hashers a) (bl_hashers b)) as [Eh|]; [|discriminate]. cbn [negb].
  destruct (bl_inner a) as [va|]; [|discriminate]. destruct (bl_inner b) as [vb|]; [|discriminate].
  destruct (bv_bits va =? bv_bits vb); [|discriminate].
  destruct (bv_or va vb) as [v|] eqn:Eor; [|discriminate]. intros [= <-].
  exists va, vb, v. repeat split; assumption.
Qed.

Lemma bloom_merge_wf a b m : bloom_wf a -> bloom_merge a b = Some m -> bloom_wf m.
Proof.
  unfold bloom_wf. intros Ha Hm. apply bloom_merge_inv in Hm. destruct Hm as (va & vb & v & Ea & _ & _ & Eor & ->).
  rewrite Ea in Ha. destruct Ha as [Hwa Hba]. cbn [bl_inner bl_bits].
  split; [exact (bv_or_wf va vb v Hwa Eor)|]. apply bv_or_inv in Eor. destruct Eor as [_ ->]. exact Hba.
Qed.

Lemma bloom_merge_all_set a b m k : bloom_wf a -> bloom_wf b -> bloom_merge a b = Some m ->
  all_set a k \/ all_set b k -> all_set m k.
Proof.
  unfold bloom_wf, all_set. intros Ha Hb Hm. apply bloom_merge_inv in Hm.
  destruct Hm as (va & vb & v & Ea & Eb & Eh & Eor & ->). rewrite Ea in *. rewrite Eb in *.
  destruct Ha as [Hwa _]. destruct Hb as [Hwb _]. cbn [bl_inner].
  destruct (bv_or_inv _ _ _ Eor) as [Ebits Ev].
  assert (Hbits : bv_bits v = bv_bits va) by (rewrite Ev; reflexivity).
  unfold bits_set, hasher_ids in *. cbn [bl_hashers]. rewrite Hbits.
  intros [[H|H]|[H|H]]; try (left; congruence); right; intros i Hi; rewrite (bv_or_get va vb v _ Hwa Hwb Eor).
  - rewrite (H i Hi). reflexivity.
  - rewrite Ebits. rewrite Eh in Hi. rewrite (H i Hi). apply orb_true_r.
Qed.

(* the byte provider of Bloom::contains_in_file over the bytes `bs`; a position past the end is an I/O error *)
Definition file_of (bs : bytes) : N -> option N := fun i => nth_error bs (N.to_nat i).

Lemma nth_error_app_plus {A} (a l : list A) n : nth_error (a ++ l) (length a + n) = nth_error l n.
Proof. induction a as [|x a IH]; [reflexivity | exact IH]. Qed.

Lemma le_bytes_testbit n w i j :
  (i < n)%nat -> j < 8 ->
  N.testbit (nth i (le_bytes n w) 0) j = N.testbit w (8 * N.of_nat i + j).
Proof.
  revert w i; induction n as [|n IH]; intros w i Hi Hj; [lia|].
  cbn [le_bytes]. destruct i as [|i]; cbn [nth].
  - change 256 with (2^8). rewrite N.mod_pow2_bits_low by lia. f_equal; lia.
  - rewrite IH by lia. change 256 with (2^8). rewrite N.div_pow2_bits. f_equal; lia.
Qed.

Lemma flat_le64_nth ws q r d : (q < length ws)%nat -> (r < 8)%nat ->
  nth (8 * q + r) (flat_map le64 ws) d = nth r (le64 (nth q ws 0)) d.
Proof.
  revert q; induction ws as [|w ws IH]; intros [|q] Hq Hr; cbn [length] in Hq; try lia; cbn [flat_map nth].
  - apply app_nth1. rewrite le64_length. exact Hr.
  - rewrite app_nth2, le64_length by (rewrite le64_length; lia).
    replace (8 * S q + r - 8)%nat with (8 * q + r)%nat by lia. apply IH; lia.
Qed.

Lemma bv_to_raw_nz v : bv_bits v <> 0 -> bv_to_raw v = bv_words v.
Proof. intros H. unfold bv_to_raw. destruct (N.eqb_spec (bv_bits v) 0); [contradiction|reflexivity]. Qed.

(* bit i of a u64 buffer lies in byte i/8 of its little-endian image, which is byte r of word i/64;
   bit i mod 8 of that byte is bit 8 * r + i mod 8 = i mod 64 of the word *)
Lemma bit_in_byte i : i / 8 = 8 * (i / 64) + i / 8 mod 8 /\ i mod 64 = 8 * (i / 8 mod 8) + i mod 8.
Proof.
  change 64 with (8 * 8). rewrite <- N.div_div, N.mod_mul_r by lia. split; [apply N.div_mod; lia | lia].
Qed.

Lemma raw_byte_bit b v raw idx :
  bl_inner b = Some v -> bv_wf v -> idx < bv_bits v -> bloom_to_raw b = Some raw ->
  exists byte, file_of raw (buffer_start_position b + idx / 8) = Some byte /\
               N.testbit byte (idx mod 8) = bv_get v idx.
Proof.
  intros Hin [Hb Hl] Hidx. unfold bloom_to_raw. rewrite Hin, bv_to_raw_nz by lia. intros Hraw.
  (* not by injection, which would unfold le64 *)
  apply (f_equal (fun o => match o with Some x => x | None => [] end)) in Hraw. subst raw.
  set (ws := bv_words v) in *.
  pose proof (items_count_covers _ _ Hb Hidx) as Hcov.
  destruct (bit_in_byte idx) as [Hbyte Hbit].
  pose proof (N.mod_lt (idx / 8) 8 ltac:(lia)) as Hr. pose proof (N.mod_lt idx 8 ltac:(lia)) as Hj.
  assert (En : N.to_nat (idx / 8) = (8 * N.to_nat (idx / 64) + N.to_nat (idx / 8 mod 8))%nat) by lia.
  exists (nth (N.to_nat (idx / 8)) (flat_map le64 ws) 0). split.
  - unfold file_of, buffer_start_position.
    assert (Hfl : length (flat_map le64 ws) = (length ws * 8)%nat) by (apply flat_map_const_length, le64_length).
    replace (N.to_nat (N.of_nat (length (bl_cfg b)) + 8 + idx / 8))
      with (length (bl_cfg b) + (length (le64 (N.of_nat (length ws))) + N.to_nat (idx / 8)))%nat
      by (rewrite le64_length; lia).
    rewrite !nth_error_app_plus, nth_error_app1 by lia. apply nth_error_nth'. lia.
  - rewrite En, flat_le64_nth by lia. unfold le64. rewrite le_bytes_testbit by lia.
    rewrite bv_get_spec, N2Nat.id, Hbit. reflexivity.
Qed.

(* the off-loaded probe reads exactly the bits the in-memory probe reads *)
Theorem file_probe_eq_memory_probe b v raw k :
  bl_inner b = Some v -> bloom_wf b -> bloom_to_raw b = Some raw -> bl_bits b <> 0 ->
  bloom_contains_in_file hash (file_of raw) (bloom_offload b) k = bloom_contains_in_memory hash b k.
Proof.
  intros Hin Hwf Hraw Hnz. unfold bloom_wf in Hwf. rewrite Hin in Hwf. destruct Hwf as [Hwf Hbits].
  unfold bloom_contains_in_file, bloom_contains_in_memory. cbn [bloom_offload bl_bits]. rewrite Hin, Hbits.
  destruct (N.eqb_spec (bl_bits b) 0) as [|_]; [contradiction|].
  change (hasher_ids (bloom_offload b)) with (hasher_ids b).
  change (buffer_start_position (bloom_offload b)) with (buffer_start_position b).
  induction (hasher_ids b) as [|i r IH]; cbn [map contains_in_file_loop forallb]; [reflexivity|].
  rewrite offset_and_mask_u8_spec.
  assert (Hlt : hash i k mod bl_bits b < bv_bits v) by (rewrite Hbits; apply N.mod_lt; assumption).
  destruct (raw_byte_bit b v raw _ Hin Hwf Hlt Hraw) as [byte [Hf Ht]].
  rewrite Hf, get_bit_u8_spec, Ht. destruct (bv_get v _); cbn [andb]; [exact IH|reflexivity].
Qed.

End Hash.
